(* C20 -- Configuration is honoured (the builder -> configuration function; the OS socket layer, rustls'
   negotiation and quinn's timers are observed by the suites "bind", "idle", "alpn", "reload", not modelled). *)
From WT.Model Require Import Base Tls Config.
From WT.Proofs Require Import TlsP ConfigP.

(* the six bind presets: address and dual-stack mode (IPV6_V6ONLY set / cleared / left to the OS) *)
Theorem C20_bind_presets :
  forall p, (preset_ip p, v6only (preset_dual p)) =
    match p with
    | LocalV4 => (Ip4Localhost, None) | LocalV6 => (Ip6Localhost, Some true) | LocalDual => (Ip6Localhost, Some false)
    | AnyV4 => (Ip4Unspecified, None) | AnyV6 => (Ip6Unspecified, Some true) | AnyDual => (Ip6Unspecified, Some false)
    end.
Proof. intros p. destruct p; reflexivity. Qed.

(* an idle timeout is applied exactly (in milliseconds) when it is representable, refused when it is not,
   never altered *)
Theorem C20_idle_timeout :
  forall secs nanos,
    (forall ms, idle_accept secs nanos = Some ms -> ms = idle_ms secs nanos /\ ms < two62) /\
    (idle_accept secs nanos = None <-> two62 <= idle_ms secs nanos).
Proof. exact idle_accept_spec. Qed.

(* the transport setters of both builders (Model/Config.v), for every chain of calls *)
(* build() yields a configuration exactly when every requested idle timeout is representable, and then every
   field holds what the LAST call of its setter asked for (quinn's default when there was none) *)
Theorem C20_setter_chains_honoured :
  forall ops c,
    cbuild c ops = if forallb idle_ok ops
                   then Some (mktcfg (last_idle ops (t_idle c)) (last_keep ops (t_keep c)) (last_migr ops (t_migr c)))
                   else None.
Proof. exact cbuild_spec. Qed.
Theorem C20_invalid_idle_gives_no_configuration :
  forall ops c, cbuild c ops = None <-> forallb idle_ok ops = false.
Proof. intros ops c. rewrite cbuild_spec. destruct (forallb idle_ok ops); split; congruence. Qed.
(* a setter call changes its own field only; calls of different setters commute *)
Theorem C20_setter_frame :
  forall c o c', capply c o = Some c' ->
    match o with
    | SetIdle _ => t_keep c' = t_keep c /\ t_migr c' = t_migr c
    | SetKeep k => t_idle c' = t_idle c /\ t_migr c' = t_migr c /\ t_keep c' = k
    | SetMigr b => t_idle c' = t_idle c /\ t_keep c' = t_keep c /\ t_migr c' = b
    end.
Proof.
  intros c o c'. destruct o as [[[s n]|]|k|b]; cbn [capply].
  1: destruct (idle_accept s n); [|discriminate].   (* a refused idle timeout: no c' at all *)
  all: intros [= <-]; auto.
Qed.
Theorem C20_setters_commute :
  forall c a b, same_setter a b = false -> cbuild c [a; b] = cbuild c [b; a].
Proof.
  intros c a b. destruct a as [[[s n]|]|k|x], b as [[[s' n']|]|k'|x']; try discriminate; intros _; cbn [cbuild capply];
    try destruct (idle_accept _ _); reflexivity.
Qed.

Example C20_setter_example :
  cbuild tdefault [SetKeep (Some 250); SetIdle None; SetMigr false; SetIdle (Some (2, 500000000))]
  = Some (mktcfg (Some 2500) (Some 250) false).
Proof. exact (proj1 config_example). Qed.

Example C20_example :
  idle_accept 30 0 = Some 30000 /\ idle_accept 4611686018427387 904000000 = None /\
  idle_accept 4611686018427387 903999999 = Some 4611686018427387903.
Proof. vm_compute. repeat split; reflexivity. Qed.
