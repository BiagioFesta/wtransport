(* C15 -- All decoding paths agree and incomplete input is never consumed. *)
From WT.Model Require Import Base Frame Async StreamTS.
From WT.Proofs Require Import FrameP AsyncP MachineP StreamTSP.

(* Frame: one-shot vs async, every byte string, every terminal.  The async
   result is a function of (bytes, terminal) only: no chunking or Pending
   pattern can change it (see the machine theorems below). *)
Theorem C15_frame_paths_agree :
  forall bs t,
    match frame_read bs with
    | (RVal f, r) => frame_read_async bs t = AOk f r
    | (RErr e, r) => frame_read_async bs t = AParse e r
    | (RNone, _) => frame_read_async bs t = AIo (eof_err t (is_nil bs)) []
    end.
Proof. intros bs t. rewrite frame_read_async_eq. destruct (frame_read bs) as [[] r]; reflexivity. Qed.

(* buffered reader: the offset moves only when a value is returned, and then by
   exactly the bytes of that value *)
Theorem C15_frame_buffer_offset :
  forall buf off x o, frame_read_from_buffer buf off = (x, o) ->
    match x with RVal _ => True | _ => o = off end.
Proof.
  intros buf off x o. unfold frame_read_from_buffer.
  destruct (frame_read (skipn off buf)) as [[f| |e] r]; intros [= <- <-]; auto.
Qed.

Theorem C15_frame_buffer_value :
  forall buf off f o, (off <= length buf)%nat -> frame_read_from_buffer buf off = (RVal f, o) ->
    exists r, frame_read (skipn off buf) = (RVal f, r) /\ (o = length buf - length r)%nat /\ (off < o <= length buf)%nat.
Proof. intros buf off f o _. apply frame_read_from_buffer_value. Qed.

(* a proper prefix of a valid encoding asks for more data: never a value, never an error *)
Theorem C15_frame_prefix_needs_more :
  forall f p q, frame_wf f = true -> len (fpayload f) <= max_parse_payload ->
    frame_write f = p ++ q -> q <> [] -> fst (frame_read p) = RNone.
Proof. exact frame_read_prefix. Qed.

(* more input never changes a completed read *)
Theorem C15_frame_extension :
  forall p q x r, frame_read p = (x, r) -> x <> RNone -> frame_read (p ++ q) = (x, r ++ q).
Proof. exact frame_read_ext. Qed.

Theorem C15_sheader_paths_agree :
  forall bs t,
    match sheader_read bs with
    | (SVal h, r) => sheader_read_async bs t = AOk h r
    | (SErr e, r) => sheader_read_async bs t = AParse e r
    | (SNone, _) => sheader_read_async bs t = AIo (eof_err t (is_nil bs)) []
    end.
Proof. intros bs t. rewrite sheader_read_async_eq. destruct (sheader_read bs) as [[] r]; reflexivity. Qed.

Theorem C15_sheader_buffer_offset :
  forall buf off x o, sheader_read_from_buffer buf off = (x, o) ->
    match x with SVal _ => True | _ => o = off end.
Proof.
  intros buf off x o. unfold sheader_read_from_buffer.
  destruct (sheader_read (skipn off buf)) as [[f| |e] r]; intros [= <- <-]; auto.
Qed.

Theorem C15_sheader_prefix_needs_more :
  forall h p q, sheader_wf h = true -> sheader_write h = p ++ q -> q <> [] -> fst (sheader_read p) = SNone.
Proof. exact sheader_read_prefix. Qed.

(* the poll machines keep their progress across Pending: driven to completion
   they compute the completed-read semantics for EVERY schedule *)
Theorem C15_get_varint_machine :
  forall data sch t,
    exists s', drive (S (length sch)) gv_poll gv_init (mksrc data sch t) = Some (fst (gv_final data t), s') /\
               sdata s' = snd (gv_final data t).
Proof. exact get_varint_machine_refines. Qed.

Theorem C15_get_buffer_machine :
  forall (E : Type) n data sch t,
    exists s', drive (S (length sch)) (gb_poll (S n) n) [] (mksrc data sch t) =
               Some (match @a_get_buffer E n data t with
                     | AOk p _ => inr p | AIo e _ => inl e | AParse _ _ => inl IoLost end, s') /\
               sdata s' = match @a_get_buffer E n data t with AOk _ r => r | AIo _ r => r | AParse _ r => r end.
Proof. exact get_buffer_machine_refines. Qed.

(* the typestates' read_frame / read_frame_async agree (first-frame state included) *)
Theorem C15_typestate_paths_agree :
  forall n ts fd bs t, (length bs < n)%nat ->
    match read_frame n ts fd bs with
    | TFrame f r fd' => read_frame_async n ts fd bs t = ATFrame f r fd'
    | TErr e r fd' => read_frame_async n ts fd bs t = ATH3 e r fd'
    | TNeedMore _ fd' =>
        fd' = fd /\
        read_frame_async n ts fd bs t =
          match eof_err t (is_nil (after_unknowns n bs)) with
          | UnexpectedFin => ATH3 EFrame [] fd
          | e => ATIo e [] fd
          end
    | TOutOfFuel => False
    end.
Proof. intros n ts fd bs t H. exact (read_frame_paths_agree n n ts fd bs t H H). Qed.

Theorem C15_typestate_buffer_offset :
  forall ts fd buf off,
    match read_frame_from_buffer ts fd buf off with
    | BFrame _ o _ => (off <= length buf -> off < o <= length buf)%nat
    | BNeedMore o _ => o = off
    | BErr _ o _ => o = off
    | BOutOfFuel => False
    end.
Proof.
  intros ts fd buf off. pose proof (read_frame_from_buffer_offset ts fd buf off) as H.
  destruct (read_frame_from_buffer ts fd buf off); auto.
Qed.

Theorem C15_typestate_buffer_same :
  forall ts fd buf off,
    match read_frame_from_buffer ts fd buf off, read_frame (fuel_for (skipn off buf)) ts fd (skipn off buf) with
    | BFrame f o fd1, TFrame g r fd2 => f = g /\ fd1 = fd2 /\ o = (length buf - length r)%nat
    | BNeedMore _ fd1, TNeedMore _ fd2 => fd1 = fd2
    | BErr e _ fd1, TErr e' _ fd2 => e = e' /\ fd1 = fd2
    | BOutOfFuel, TOutOfFuel => True
    | _, _ => False
    end.
Proof.
  intros ts fd buf off. unfold read_frame_from_buffer.
  destruct (read_frame (fuel_for (skipn off buf)) ts fd (skipn off buf)); auto.
Qed.

Example C15_example :
  frame_read [0; 3; 1; 2] = (RNone, [1; 2]) /\
  frame_read_async [0; 3; 1; 2] Fin = AIo UnexpectedFin [] /\
  frame_read_async [] Fin = AIo ImmediateFin [] /\
  frame_read_from_buffer [9; 0; 3; 1; 2] 1 = (RNone, 1%nat).
Proof. vm_compute. repeat split; congruence. Qed.
