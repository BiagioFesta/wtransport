(* C19 -- Identities, PEM files and digests round-trip; generated certs are W3C-conformant.
   Text formats are proved; DER encoding, key generation and signatures (rcgen, ring) and the third-party
   PEM parser are oracles exercised by the suites "digest", "pem", "identity". *)
From WT.Model Require Import Base Tls.
From WT.Proofs Require Import TlsP.
From Coq Require Import Lia.

(* SHA-256 digests survive format-then-parse in both textual formats, for ALL 2^256 values *)
Theorem C19_digest_array_roundtrip :
  forall d, bytes_ok d = true -> length d = 32%nat -> parse_array (fmt_array d) = Some d.
Proof. exact array_roundtrip. Qed.
Theorem C19_digest_hex_roundtrip :
  forall d, bytes_ok d = true -> length d = 32%nat -> parse_dotted_hex (fmt_hex d) = Some d.
Proof. exact hex_roundtrip. Qed.
(* FromStr (array form first, dotted-hex as fallback) never mis-parses either format's output *)
Theorem C19_digest_from_str_array :
  forall d, bytes_ok d = true -> length d = 32%nat -> digest_from_str (fmt_array d) = Some d.
Proof. intros d H1 H2. unfold digest_from_str. rewrite (array_roundtrip d H1 H2). reflexivity. Qed.
Theorem C19_digest_from_str_hex :
  forall d, bytes_ok d = true -> length d = 32%nat -> digest_from_str (fmt_hex d) = Some d.
Proof.
  intros d H1 H2. unfold digest_from_str. rewrite parse_array_no_comma; [apply hex_roundtrip; assumption|].
  apply nosep_intercalate; [reflexivity|]. apply (pieces_nosep 44 (hex_pieces_ok d H1)). reflexivity.
Qed.

(* the Base64 body of PEM files is lossless for every byte string *)
Theorem C19_base64_roundtrip :
  forall bs fuel, bytes_ok bs = true -> (length bs < fuel)%nat -> b64_decode fuel (b64_encode bs) = Some bs.
Proof. exact b64_roundtrip. Qed.

(* a generated identity (P-256, X.509 record with validity nb .. nb + days) with at most 14 days is accepted by
   hash pinning configured with its own hash while it is valid; the default is exactly 14 days *)
Theorem C19_generated_identity_is_pinnable :
  forall nb days now, days <= 14 -> nb <= now <= nb + days * 86400 -> pin_verify (identity_cert nb days) now true = PinOk.
Proof.
  intros nb days now Hd Hn. apply pin_accepts_iff. unfold identity_cert, max_validity. cbn.
  (* the period is days * 86400 seconds, at most 14 * 86400 *)
  split; [reflexivity|]. split; [exact Hn|]. split; [lia|]. auto.
Qed.
Theorem C19_default_validity_is_14_days :
  forall nb, c_na (identity_cert nb 14) - c_nb (identity_cert nb 14) = 14 * 86400.
Proof. intros nb. unfold identity_cert. cbn [c_na c_nb]. rewrite N.add_comm. apply N.add_sub. Qed.

Example C19_example :
  fmt_hex [10; 255] = [48; 97; 58; 102; 102] /\ fmt_array [7; 200] = [91; 55; 44; 32; 50; 48; 48; 93] /\
  b64_encode [77] = [84; 81; 61; 61] /\ parse_dotted_hex [48; 97] = None.
Proof. vm_compute. repeat split; reflexivity. Qed.
