(* C13 -- Unknown and GREASE protocol elements are skipped whole, with no side effects. *)
From WT.Model Require Import Base Varint Frame Async StreamTS Wire Runner.
From WT.Proofs Require Import VarintP FrameP AsyncP StreamTSP WireP RunnerP.

(* an unknown frame -- any unknown type id, any payload (including bytes that
   look like frames), followed by anything -- is consumed whole *)
Theorem C13_unknown_frame_consumed_whole :
  forall t p rest, fkind_parse t = None -> t <= varint_max -> len p <= varint_max ->
    frame_read (unknown_frame t p ++ rest) = (RErr PUnknown, rest).
Proof. exact frame_read_unknown. Qed.

(* ... and every typestate's read_frame then behaves exactly as if it were not
   there: same result, same first-frame state (sync and async paths) *)
Theorem C13_read_frame_skips_unknown :
  forall ts fd t p rest, fkind_parse t = None -> t <= varint_max -> len p <= varint_max ->
    read_frame (fuel_for (unknown_frame t p ++ rest)) ts fd (unknown_frame t p ++ rest)
    = read_frame (fuel_for rest) ts fd rest.
Proof. exact read_frame_skips_unknown. Qed.

Theorem C13_read_frame_async_skips_unknown :
  forall ts fd t p rest tm, fkind_parse t = None -> t <= varint_max -> len p <= varint_max ->
    read_frame_async (fuel_for (unknown_frame t p ++ rest)) ts fd (unknown_frame t p ++ rest) tm
    = read_frame_async (fuel_for rest) ts fd rest tm.
Proof. exact read_frame_async_skips_unknown. Qed.

(* any number of insertions at any frame boundaries of an exchange: the
   sequence of frames delivered and the way the exchange ends are unchanged *)
Theorem C13_insertions_invisible :
  forall ts items fd tail, forallb item_ok items = true ->
    frames_of (S (length (enc_items items ++ tail))) ts fd (enc_items items ++ tail)
    = frames_of (S (length (enc_items (filter is_known items) ++ tail))) ts fd
                (enc_items (filter is_known items) ++ tail).
Proof. exact insertions_invisible. Qed.

(* skipping terminates: the loop consumes input on every iteration *)
Theorem C13_read_frame_terminates :
  forall ts fd bs, read_frame (fuel_for bs) ts fd bs <> TOutOfFuel.
Proof. exact read_frame_terminates. Qed.

(* the code before the repair (fix: 4e69a07) violated the frame clause *)
Theorem C13_legacy_refuted :
  exists ts t p rest,
    fkind_parse t = None /\
    read_frame_legacy (fuel_for (unknown_frame t p ++ rest)) ts false (unknown_frame t p ++ rest)
    <> read_frame_legacy (fuel_for rest) ts false rest.
Proof. exists TUniRemote, 7, [0], [4; 0]. split; [reflexivity|]. vm_compute. discriminate. Qed.

Example C13_example :
  let items := [IUnknown 7 [4; 0]; IFrame (mkframe KSettings [] None); IUnknown 16962 [0; 1; 5]] in
  forallb item_ok items = true /\
  frames_of 64 TUniRemote false (enc_items items) = ([mkframe KSettings [] None], EndNeedMore).
Proof. vm_compute. split; reflexivity. Qed.

(* unknown setting ids are skipped, GREASE ids are stored apart: for every order and every
   placement, the known settings read from the frame are exactly the known ones written *)
Theorem C13_settings_unknown_transparent :
  forall l m, forallb pair_ok l = true -> sok_nodup [] l = true ->
    settings_with_frame (settings_payload l) = Val m ->
    filter is_known_setting m = filter is_known_setting l.
Proof. intros l m H1 H2 H3. rewrite (settings_roundtrip l H1 H2) in H3. injection H3 as <-. apply filter_known_sok. Qed.

(* a capsule of any other type is skipped *)
Theorem C13_unknown_capsule_skipped :
  forall ty rest, ty <= varint_max -> ty <> capsule_close_type -> capsule_with_frame (enc ty ++ rest) = None.
Proof.
  intros ty rest Ht Hne. unfold capsule_with_frame. rewrite (get_enc _ _ Ht). apply N.eqb_neq in Hne. rewrite Hne.
  reflexivity.
Qed.

(* the session stream: any number of skippable elements (unknown frames, GREASE frames,
   unknown capsules) change nothing *)
Theorem C13_session_stream_skips :
  forall items f rest t, forallb sitem_ok items = true ->
    connect_run (S (sitems_frames items + f)) (enc_sitems items ++ rest) t = connect_run (S f) rest t.
Proof. exact connect_run_skip_items. Qed.

(* the control stream: unknown frames anywhere, GREASE frames after SETTINGS *)
Theorem C13_control_stream_unknown_frame :
  forall u p rest t f have, fkind_parse u = None -> u <= varint_max -> len p <= varint_max ->
    settings_run (S f) have (unknown_frame u p ++ rest) t = settings_run (S f) have rest t.
Proof. exact settings_run_unknown_frame. Qed.
Theorem C13_control_stream_grease :
  forall id p rest t f m, is_exercise id = true -> id <= varint_max -> len p <= max_parse_payload ->
    settings_run (S f) (Some m) (frame_write (mkframe (KExercise id) p None) ++ rest) t = settings_run f (Some m) rest t.
Proof. intros * Hx Hid Hl. exact (settings_run_frame f (Some m) _ rest t (exercise_frame_wf id p Hx Hid) Hl). Qed.

(* an unknown unidirectional stream type, whatever follows, never closes the connection *)
Theorem C13_unknown_uni_stream_never_closes :
  forall c id rest t, skind_parse id = None -> id <= varint_max ->
    uni_accept c (enc id ++ rest) t = (RIgnoreStream EStreamCreation, c).
Proof.
  intros c id rest t Hk Hid. unfold uni_accept, uni_upgrade_async. rewrite sheader_read_async_eq. unfold sheader_read.
  rewrite (get_enc _ _ Hid), Hk. reflexivity.
Qed.

(* the code before the repair (fix: 4af9bb3) closed the connection *)
Theorem C13_uni_legacy_refuted : exists c d t e, uni_accept_legacy c d t = (RClose e, c).
Proof. exists (mkcrit false false false), [64; 66], Fin, EStreamCreation. reflexivity. Qed.
