(* C03 -- Datagram payloads are never altered and the size contract is exact. *)
From WT.Model Require Import Base Varint Ids Wire.
From WT.Proofs Require Import WireP.

Theorem C03_roundtrip :
  forall sid p, session_ok sid = true -> sid <= varint_max ->
    drv_dgram_read (drv_dgram_write sid p) = Val (sid, vsize (q_from_session sid), p).
Proof. exact drv_dgram_roundtrip. Qed.

(* whatever is delivered is exactly the suffix after the quarter-stream-id
   header: never merged, truncated or delivered with framing bytes *)
Theorem C03_payload_is_suffix :
  forall bs q p, dgram_read bs = Val (q, p) -> exists h, bs = h ++ p /\ h <> [] /\ q <= qstream_max.
Proof. exact dgram_read_some. Qed.

(* size contract: within the advertised maximum <=> never refused as too large *)
Theorem C03_size_contract :
  forall qm sid m L, max_datagram_size (Some qm) sid = Some m -> (send_too_large qm sid L = false <-> L <= m).
Proof. intros qm sid m L E. pose proof (max_datagram_size_spec qm sid) as S. rewrite E in S. apply S. Qed.

(* querying the maximum is total and sane whatever the peer advertises *)
Theorem C03_max_is_sane :
  forall qm sid,
    match max_datagram_size qm sid with
    | None => True
    | Some m => exists q, qm = Some q /\ m + N.of_nat (vsize (q_from_session sid)) = q
    end.
Proof.
  intros [q|] sid; [|exact I]. pose proof (max_datagram_size_spec q sid) as S.
  destruct (max_datagram_size (Some q) sid); [exists q; split; [reflexivity|apply S]|exact I].
Qed.

(* when the header does not fit nothing can be sent: None is the honest answer *)
Theorem C03_none_means_nothing_fits :
  forall qm sid L, max_datagram_size (Some qm) sid = None -> send_too_large qm sid L = true.
Proof. intros qm sid L E. pose proof (max_datagram_size_spec qm sid) as S. rewrite E in S. apply S. Qed.

(* the code before the repair (fix: bc3d4c5): panic with overflow checks, a huge bogus maximum without *)
Theorem C03_legacy_refuted :
  exists qm sid, max_datagram_size_legacy true (Some qm) sid = Panic /\
                 exists m, max_datagram_size_legacy false (Some qm) sid = Val (Some m) /\ qm < m.
Proof. exists 0, 0. split; [reflexivity|]. eexists. split; [reflexivity|]. vm_compute. reflexivity. Qed.

Example C03_example :
  max_datagram_size (Some 1200) 16384 = Some 1198 /\ max_datagram_size (Some 0) 0 = None /\
  send_too_large 1200 16384 1198 = false /\ send_too_large 1200 16384 1199 = true.
Proof. vm_compute. repeat split; reflexivity. Qed.
