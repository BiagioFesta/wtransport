(* C10 -- Certificate-hash pinning accepts exactly the pinned, short-lived P-256 leaf.
   The decision rule of ServerHashVerification::verify_server_cert as a function of the certificate's
   abstract fields; X.509 parsing, SHA-256 and the TLS handshake are oracles (exercised by the "pin" suite). *)
From WT.Model Require Import Base Tls.
From WT.Proofs Require Import TlsP.
From Coq Require Import Lia.

Theorem C10_accepts_iff :
  forall c now h,
    pin_verify c now h = PinOk <->
    (c_parse_ok c = true /\ c_nb c <= now <= c_na c /\ c_na c - c_nb c <= max_validity /\
     c_is_ec c = true /\ c_is_p256 c = true /\ h = true).
Proof. exact pin_accepts_iff. Qed.

(* no value of the other inputs makes a certificate failing one condition acceptable *)
Theorem C10_each_condition_necessary :
  forall c now h,
    (c_parse_ok c = false \/ now < c_nb c \/ c_na c < now \/ max_validity < c_na c - c_nb c \/
     c_is_ec c = false \/ c_is_p256 c = false \/ h = false) -> pin_verify c now h <> PinOk.
Proof.
  intros c now h H E. apply pin_accepts_iff in E as (P & N1 & V & Ec & C & ->).
  rewrite P, Ec, C in H. lia.
Qed.

Theorem C10_refusal_values :
  forall c now h,
    match pin_verify c now h with
    | PinBadEncoding => c_parse_ok c = false
    | PinNotValidYet => now < c_nb c
    | PinExpired => c_na c < now
    | PinUnknownIssuer => max_validity < c_na c - c_nb c \/ c_is_ec c = false \/ c_is_p256 c = false \/ h = false
    | PinOk => True
    end.
Proof. intros c now h. pose proof (pin_verify_spec c now h). destruct (pin_verify c now h); auto. Qed.

(* the code before the repair (fix: b8325ad) refused a pinned certificate valid for a single instant *)
Theorem C10_legacy_refuted :
  exists c now, pin_verify_legacy c now true <> PinOk /\
    c_parse_ok c = true /\ c_nb c <= now <= c_na c /\ c_na c - c_nb c <= max_validity /\ c_is_ec c = true /\ c_is_p256 c = true.
Proof.
  exists (mkcertv true 5 5 true true), 5. unfold max_validity. cbn [c_parse_ok c_nb c_na c_is_ec c_is_p256].
  split; [vm_compute; discriminate|repeat split; lia].
Qed.

Example C10_example :
  pin_verify (mkcertv true 100 (100 + 1209600) true true) 100 true = PinOk /\
  pin_verify (mkcertv true 100 (100 + 1209601) true true) 100 true = PinUnknownIssuer /\
  pin_verify (mkcertv true 100 200 true false) 150 true = PinUnknownIssuer /\
  pin_verify (mkcertv true 100 200 true true) 201 true = PinExpired.
Proof. vm_compute. repeat split; reflexivity. Qed.
