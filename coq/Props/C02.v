(* C02 -- Session setup carries the request faithfully and mirrors the decision. *)
From WT.Model Require Import Base Ids Frame Async Qpack Session Runner Emit.
From WT.Proofs Require Import BaseP WireP QpackP SessionP RunnerP HuffmanP QpackRT.
From Coq Require Import Permutation.

(* what the server application sees of a request built from (authority, path-with-query): exactly the
   fixed WebTransport pseudo-headers plus the URL's authority and path, and it is admitted *)
Theorem C02_request_fields :
  forall a p,
    hget k_method (request_new a p) = Some v_connect /\ hget k_scheme (request_new a p) = Some v_https /\
    hget k_protocol (request_new a p) = Some v_webtransport /\
    hget k_authority (request_new a p) = Some a /\ hget k_path (request_new a p) = Some p /\
    length (request_new a p) = 5%nat.
Proof. exact request_new_fields. Qed.
Theorem C02_request_admitted : forall a p, request_try_from (request_new a p) = inr (request_new a p).
Proof. intros a p. reflexivity. Qed.

(* additional fields are carried next to the reserved ones, which they can never override *)
Theorem C02_extra_fields_kept : forall k v m, hget k (hinsert k v m) = Some v.
Proof. exact hget_hinsert_same. Qed.
Theorem C02_extra_fields_do_not_disturb : forall k k2 v m, k2 <> k -> hget k2 (hinsert k v m) = hget k2 m.
Proof. exact hget_hinsert_other. Qed.

(* the decision: connect yields a session iff the status is 2xx, 'session rejected' iff it is another valid
   status; extra response fields never change the outcome *)
Theorem C02_acceptance_iff_2xx : forall v, status_is_successful v = true <-> 200 <= v <= 299.
Proof. exact status_is_successful_spec. Qed.
Theorem C02_response_roundtrip : forall c, 100 <= c <= 599 -> response_try_from (response_with_status c) = inr c.
Proof.
  intros c H. unfold response_try_from, response_with_status. cbn [hget].
  rewrite list_eqb_refl, (status_show_parse c H). reflexivity.
Qed.
Theorem C02_extra_response_fields_irrelevant :
  forall h k v, k <> k_status -> response_try_from (hinsert k v h) = response_try_from h.
Proof. intros h k v Hne. unfold response_try_from. rewrite hget_hinsert_other by congruence. reflexivity. Qed.

(* the wire form: prefix integers of every width round-trip, static-table references are sound,
   the section decoder is total *)
Theorem C02_qpack_integer_roundtrip :
  forall n fl v tail, In n [1; 2; 3; 4; 5; 6; 7; 8] -> fl < 2 ^ (8 - n) -> v < two64 ->
    dec_int n (enc_int n fl v ++ tail) = Val (fl, v, tail).
Proof. intros n fl v tail Hn. exact (dec_enc_int n fl v tail (width_le_8 n Hn)). Qed.
Theorem C02_static_table_sound :
  forall k v,
    match lookup_index k v with
    | LKeyValue i => lookup_field i = Some (k, v)
    | LKeyOnly i => exists v', lookup_field i = Some (k, v')
    | LNone => True
    end.
Proof. exact lookup_index_sound. Qed.

(* the whole wire form: any set of fields with distinct names (what a HashMap holds) whose names and
   values are Rust Strings (valid UTF-8, length below 2^64) survives generate_frame -> with_frame:
   the receiver's map holds exactly the sender's fields (Huffman or raw strings, static-table
   references and literals alike), in the emitted order *)
Theorem C02_header_map_roundtrip :
  forall m, keys_distinct m = true -> fields_okb m = true ->
    headers_with_frame (fpayload (headers_generate_frame m)) = Val (sorted_headers m)
    /\ Permutation (sorted_headers m) m
    /\ forall k, hget k (sorted_headers m) = hget k m.
Proof. exact headers_roundtrip_b. Qed.
Theorem C02_huffman_roundtrip : forall s, bytes_ok s = true -> hdecode (hencode s) = Some s.
Proof. exact huffman_roundtrip. Qed.

(* both endpoints name the session by the CONNECT stream: the id the accept path hands out is the
   one the opening path wrote *)
Theorem C02_session_id_agrees :
  forall s rest t, session_ok s = true -> s <= varint_max -> bi_accept (emit_bi_preamble s ++ rest) t = RHandWT s rest.
Proof. exact bi_accept_wt. Qed.

Definition ex_authority : bytes := [101; 120; 97; 109; 112; 108; 101; 46; 99; 111; 109]. (* "example.com" *)
Definition ex_path : bytes := [47; 120; 63; 121; 61; 49].                                   (* "/x?y=1" *)
Example C02_example :
  client_response (emit_response 200 []) Lost = CSession /\ client_response (emit_response 404 []) Lost = CSessionRejected /\
  match bi_accept (emit_request (request_new ex_authority ex_path)) Lost with
  | ROfferSession h => hget k_authority h = Some ex_authority /\ hget k_path h = Some ex_path /\
                       hget k_method h = Some v_connect /\ length h = 5%nat
  | _ => False
  end.
Proof. vm_compute. repeat split; reflexivity. Qed.

Definition ex_map : hmap := request_new ex_authority ex_path ++ [([120; 45; 195; 169], [226; 152; 131; 33])].
Example C02_header_map_example :
  keys_distinct ex_map = true /\ fields_okb ex_map = true /\
  headers_with_frame (fpayload (headers_generate_frame ex_map)) = Val (sorted_headers ex_map) /\
  hdecode (hencode ex_authority) = Some ex_authority.
Proof. vm_compute. repeat split; reflexivity. Qed.
