(* C17 -- Identifier algebra is exact; foreign-session traffic is never delivered (codec level and the
   driver's session filter). *)
From WT.Model Require Import Base Varint Ids Frame Wire Filter.
From WT.Proofs Require Import FrameP WireP FilterP.

(* a session id is accepted exactly when it names a client-initiated bidirectional stream *)
Theorem C17_session_id_accepted_iff : forall x, session_ok x = true <-> x mod 4 = 0.
Proof. exact session_ok_spec. Qed.

(* stream-id classification matches QUIC: bit 0 = initiator, bit 1 = direction *)
Theorem C17_is_client_initiated : forall x, is_client_initiated x = true <-> x mod 2 = 0.
Proof. exact is_client_initiated_spec. Qed.
Theorem C17_is_bidirectional : forall x, is_bidirectional x = true <-> (x / 2) mod 2 = 0.
Proof. exact is_bidirectional_spec. Qed.
Theorem C17_is_local : forall x srv, is_local x srv = true <-> x mod 2 = (if srv then 1 else 0).
Proof. exact is_local_spec. Qed.

(* conversions are mutually inverse and stay in range, for all 2^62 values *)
Theorem C17_session_to_quarter_and_back : forall s, session_ok s = true -> q_into_stream (q_from_session s) = s.
Proof. exact q_roundtrip_session. Qed.
Theorem C17_quarter_to_session_and_back : forall q, q_from_session (q_into_stream q) = q.
Proof. exact q_roundtrip_q. Qed.
Theorem C17_quarter_gives_session : forall q, session_ok (q_into_stream q) = true.
Proof. exact q_into_stream_session. Qed.
Theorem C17_quarter_to_stream_range : forall q, q <= qstream_max -> q_into_stream q <= varint_max.
Proof. exact q_into_stream_range. Qed.
Theorem C17_session_to_quarter_range : forall s, s <= varint_max -> q_from_session s <= qstream_max.
Proof. exact q_from_session_range. Qed.
Theorem C17_quarter_accepted_iff : forall v, q_try_from_varint v = Some v <-> v <= qstream_max.
Proof. intros v. rewrite q_try_from_varint_some. tauto. Qed.

(* the debug_assert / unsafe preconditions hold on every checked value *)
Theorem C17_unsafe_preconditions :
  (forall s, s <= varint_max -> q_from_session_assert s = true) /\
  (forall q, q <= qstream_max -> q_into_stream_assert q = true).
Proof.
  split; intros x H.
  - apply N.leb_le, q_from_session_range, H.
  - apply N.leb_le, q_into_stream_range, H.
Qed.

(* what the parser hands out as a session id always names a client-initiated bidi stream *)
Theorem C17_parsed_session_ids_valid :
  forall bs f r, frame_read bs = (RVal f, r) -> frame_wf f = true /\ len (fpayload f) <= max_parse_payload.
Proof. exact frame_read_wf. Qed.
Theorem C17_parsed_header_session_ids_valid :
  forall bs h r, sheader_read bs = (SVal h, r) -> sheader_wf h = true.
Proof. exact sheader_read_wf. Qed.

(* datagrams name their session by the quarter id: the driver's view of the session id *)
Theorem C17_datagram_session :
  forall sid p, session_ok sid = true -> sid <= varint_max ->
    drv_dgram_read (drv_dgram_write sid p) = Val (sid, vsize (q_from_session sid), p).
Proof. exact drv_dgram_roundtrip. Qed.

(* the driver's session filter (Model/Filter.v: Driver::accept_uni / accept_bi / receive_datagram) *)
(* whatever the channel holds: a call returns only an item of the caller's session ... *)
Theorem C17_accept_returns_own_session :
  forall sid ch x, returned (accept_loop sid ch) = Some x -> snd x = sid.
Proof. intros sid ch x H. destruct (accept_loop_spec sid ch) as (_ & _ & S). rewrite H in S. exact S. Qed.
(* ... refuses only items of other sessions, keeps the order and touches nothing behind the returned item ... *)
Theorem C17_accept_refuses_only_foreign :
  forall sid ch, Forall (fun y => snd y <> sid) (discarded (accept_loop sid ch)).
Proof. intros sid ch. apply accept_loop_spec. Qed.
Theorem C17_accept_conserves :
  forall sid ch, ch = discarded (accept_loop sid ch)
                      ++ match returned (accept_loop sid ch) with Some x => [x] | None => [] end
                      ++ remaining (accept_loop sid ch).
Proof. intros sid ch. apply accept_loop_spec. Qed.
(* ... and cannot skip a waiting item of its own session *)
Theorem C17_accept_finds_own :
  forall sid ch, (exists x, In x ch /\ snd x = sid) -> returned (accept_loop sid ch) <> None.
Proof.
  intros sid ch (x & Hin & Hx) Hn. destruct (accept_loop_spec sid ch) as (H1 & H2 & H3). rewrite Hn in *.
  (* nothing returned: the channel ran empty, all of it was discarded, x with it *)
  rewrite H1, H3, app_nil_r in Hin. rewrite Forall_forall in H2. exact (H2 x Hin Hx).
Qed.
(* any number of calls: delivered = the consumed items of the session, refused = the other consumed items *)
Theorem C17_calls_deliver_exactly_own :
  forall n sid ch g d r, accept_n n sid ch = (g, d, r) ->
    exists consumed, ch = consumed ++ r /\ g = own sid consumed /\ d = foreign sid consumed.
Proof. exact accept_n_spec. Qed.
Theorem C17_foreign_never_delivered :
  forall n sid ch g d r, accept_n n sid ch = (g, d, r) ->
    Forall (fun y => snd y = sid) g /\ Forall (fun y => snd y <> sid) d.
Proof. exact accept_n_never_delivers_foreign. Qed.
Theorem C17_refusal_code : discard_code = 966049156.   (* 0x3994bd84 WEBTRANSPORT_BUFFERED_STREAM_REJECTED *)
Proof. reflexivity. Qed.

Example C17_filter_example :
  accept_n 2 0 [(3, 4); (7, 0); (11, 8); (15, 0); (19, 0)] = ([(7, 0); (15, 0)], [(3, 4); (11, 8)], [(19, 0)]).
Proof. exact (proj1 filter_example). Qed.

Example C17_example :
  session_ok 4611686018427387900 = true /\ session_ok 4611686018427387901 = false /\
  q_from_session 4611686018427387900 = qstream_max /\ q_try_from_varint (qstream_max + 1) = None.
Proof. vm_compute. repeat split; reflexivity. Qed.
