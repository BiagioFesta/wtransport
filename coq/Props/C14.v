(* C14 -- Encoding and decoding are exact inverses with exact sizes. *)
From WT.Model Require Import Base Varint Ids Frame Wire Qpack.
From WT.Proofs Require Import BaseP VarintP FrameP WireP QpackP HuffmanP QpackRT.
From Coq Require Import Permutation.

(* variable-length integers: decode (encode v ++ rest) = (v, rest) for every
   representable v and every continuation *)
Theorem C14_varint_roundtrip :
  forall v r, v <= varint_max -> get_varint (enc v ++ r) = Some (v, r).
Proof. exact get_enc. Qed.

(* the encoder writes exactly the number of bytes its size query announces *)
Theorem C14_varint_size : forall v, length (enc v) = vsize v.
Proof. exact enc_length. Qed.

(* shortest form: any of the four wire sizes that can hold v is >= size v, and
   every decoding consumed at least size v bytes *)
Theorem C14_varint_shortest :
  forall v n, In n [1%nat; 2%nat; 4%nat; 8%nat] -> v < 2 ^ (8 * N.of_nat n - 2) -> (vsize v <= n)%nat.
Proof. exact vsize_minimal. Qed.

Theorem C14_varint_decode_consumes_at_least_size :
  forall bs v r, get_varint bs = Some (v, r) -> (vsize v <= length bs - length r)%nat.
Proof. exact get_varint_minimal. Qed.

(* a too-small destination is refused (and the model returns no bytes, i.e. the
   destination is untouched); otherwise exactly size bytes are produced *)
Theorem C14_varint_capacity :
  forall cap v,
    (put_varint_cap cap v = None <-> (cap < vsize v)%nat) /\
    (forall bs, put_varint_cap cap v = Some bs -> bs = enc v /\ length bs = vsize v).
Proof. intros cap v. exact (capped_write_spec cap _ _ (enc_length v)). Qed.

(* non-vacuity: the hypotheses are met by non-trivial values *)
Example C14_varint_example :
  varint_max <= varint_max /\ get_varint (enc 16384 ++ [7]) = Some (16384, [7]) /\ vsize 16384 = 4%nat.
Proof. vm_compute. repeat split; congruence. Qed.

(* decode (encode f ++ rest) = (f, rest) for every well-formed frame whose
   payload is within the receiver's parse limit (4096), any continuation *)
Theorem C14_frame_roundtrip :
  forall f r, frame_wf f = true -> len (fpayload f) <= max_parse_payload ->
              frame_read (frame_write f ++ r) = (RVal f, r).
Proof. exact frame_read_write. Qed.

Theorem C14_frame_size : forall f, length (frame_write f) = frame_write_size f.
Proof. exact frame_write_length. Qed.

Theorem C14_frame_capacity :
  forall cap f,
    (frame_write_to_buffer cap f = None <-> (cap < frame_write_size f)%nat) /\
    (forall w, frame_write_to_buffer cap f = Some w -> w = frame_write f /\ length w = frame_write_size f).
Proof. intros cap f. exact (capped_write_spec cap _ _ (frame_write_length f)). Qed.

Theorem C14_sheader_roundtrip :
  forall h r, sheader_wf h = true -> sheader_read (sheader_write h ++ r) = (SVal h, r).
Proof. exact sheader_read_write. Qed.

Theorem C14_sheader_size : forall h, length (sheader_write h) = sheader_write_size h.
Proof. exact sheader_write_length. Qed.

Theorem C14_sheader_capacity :
  forall cap h,
    (sheader_write_to_buffer cap h = None <-> (cap < sheader_write_size h)%nat) /\
    (forall w, sheader_write_to_buffer cap h = Some w -> w = sheader_write h /\ length w = sheader_write_size h).
Proof. intros cap h. exact (capped_write_spec cap _ _ (sheader_write_length h)). Qed.

Example C14_frame_example :
  let f := mkframe (KExercise 64) [1; 2; 3] None in
  frame_wf f = true /\ len (fpayload f) <= max_parse_payload /\
  frame_read (frame_write f ++ [9]) = (RVal f, [9]) /\
  sheader_wf (mksheader SWebTransport (Some 16384)) = true.
Proof. vm_compute. repeat split; congruence. Qed.

(* SETTINGS: for EVERY order in which the map is iterated (any list l of
   distinct, non-reserved ids), decoding the generated payload gives back
   exactly the entries the receiver stores (all of them when the ids are known
   or GREASE) *)
Theorem C14_settings_roundtrip :
  forall l, forallb pair_ok l = true -> sok_nodup [] l = true ->
    settings_with_frame (settings_payload l) = Val (filter sok l).
Proof. exact settings_roundtrip. Qed.

Theorem C14_datagram_roundtrip :
  forall q p, q <= qstream_max -> dgram_read (enc q ++ p) = Val (q, p).
Proof. exact dgram_roundtrip. Qed.

Theorem C14_datagram_capacity :
  forall cap q p,
    (dgram_write cap q p = None <-> (cap < dgram_write_size q p)%nat) /\
    (forall w, dgram_write cap q p = Some w -> w = enc q ++ p /\ length w = dgram_write_size q p).
Proof. intros cap q p. apply capped_write_spec. rewrite app_length, enc_length. reflexivity. Qed.

(* QPACK prefix integers, every prefix width 1..8, every flag pattern, every 64-bit value *)
Theorem C14_qpack_integer_roundtrip :
  forall n fl v tail, In n [1; 2; 3; 4; 5; 6; 7; 8] -> fl < 2 ^ (8 - n) -> v < two64 ->
    dec_int n (enc_int n fl v ++ tail) = Val (fl, v, tail).
Proof. intros n fl v tail Hn. exact (dec_enc_int n fl v tail (width_le_8 n Hn)). Qed.

(* QPACK strings (Huffman when shorter, raw otherwise), for the two prefix widths in use and any flags *)
Theorem C14_huffman_roundtrip : forall s, bytes_ok s = true -> hdecode (hencode s) = Some s.
Proof. exact huffman_roundtrip. Qed.
Theorem C14_qpack_string_roundtrip :
  forall n fl s tail, In n [1; 2; 3; 4; 5; 6; 7; 8] -> fl * 2 + 1 < 2 ^ (8 - n) -> str_ok s ->
    dec_str n (enc_str n fl s ++ tail) = Val (s, tail).
Proof. exact dec_enc_str. Qed.
(* whole field sections, any number of fields in any order (later duplicates overwrite, as HashMap::insert) *)
Theorem C14_field_section_roundtrip :
  forall l, fields_okb l = true -> qpack_decode (qpack_encode l) = Val (fold_left ins l []).
Proof. exact qpack_roundtrip_b. Qed.
(* header maps through HEADERS frames *)
Theorem C14_header_map_roundtrip :
  forall m, keys_distinct m = true -> fields_okb m = true ->
    headers_with_frame (fpayload (headers_generate_frame m)) = Val (sorted_headers m)
    /\ Permutation (sorted_headers m) m
    /\ forall k, hget k (sorted_headers m) = hget k m.
Proof. exact headers_roundtrip_b. Qed.

(* static-table references produced by the encoder denote the field they replace *)
Theorem C14_static_table_sound :
  forall k v,
    match lookup_index k v with
    | LKeyValue i => lookup_field i = Some (k, v)
    | LKeyOnly i => exists v', lookup_field i = Some (k, v')
    | LNone => True
    end.
Proof. exact lookup_index_sound. Qed.

Example C14_settings_example :
  forallb pair_ok local_settings = true /\ sok_nodup [] local_settings = true /\
  settings_with_frame (settings_payload local_settings) = Val local_settings /\
  dec_int 6 (enc_int 6 3 98 ++ [1]) = Val (3, 98, [1]).
Proof. vm_compute. repeat split; reflexivity. Qed.
