(* C11 -- Decoding untrusted bytes is total, bounded and invariant-preserving.
   Every decoder of the model is a total Coq function; the outcome classes
   Panic / OutOfFuel exist only for the loops and the arithmetic that could
   leave its width, and the theorems below show they are never produced. *)
From WT.Model Require Import Base Varint Ids Frame StreamTS Wire Qpack.
From WT.Proofs Require Import VarintP FrameP StreamTSP WireP QpackP.

(* integers below 2^62 *)
Theorem C11_varint_range : forall bs v r, get_varint bs = Some (v, r) -> v <= varint_max.
Proof. exact get_varint_range. Qed.

(* frames: session ids on client-initiated bidirectional streams, payload within the limit *)
Theorem C11_frame_invariants :
  forall bs f r, frame_read bs = (RVal f, r) -> frame_wf f = true /\ len (fpayload f) <= max_parse_payload.
Proof. exact frame_read_wf. Qed.
Theorem C11_sheader_invariants : forall bs h r, sheader_read bs = (SVal h, r) -> sheader_wf h = true.
Proof. exact sheader_read_wf. Qed.

(* no decoder spins: every loop consumes input (fuel = |input| + 1 is never exhausted) *)
Theorem C11_read_frame_terminates : forall ts fd bs, read_frame (fuel_for bs) ts fd bs <> TOutOfFuel.
Proof. exact read_frame_terminates. Qed.
Theorem C11_read_frame_async_terminates : forall ts fd d t, read_frame_async (fuel_for d) ts fd d t <> ATOutOfFuel.
Proof. intros ts fd d t. apply (read_frame_async_fuel ts fd t _ (fuel_for d)); apply Nat.lt_succ_diag_r. Qed.
Theorem C11_frame_progress : forall bs x r, frame_read bs = (x, r) -> x <> RNone -> (length r < length bs)%nat.
Proof. exact frame_read_progress. Qed.
Theorem C11_settings_total :
  forall payload, settings_with_frame payload <> OutOfFuel /\ settings_with_frame payload <> Panic /\
                  settings_with_frame payload <> NeedMore.
Proof.
  intros payload. unfold settings_with_frame. pose proof (settings_parse_total _ payload [] (Nat.lt_succ_diag_r _)) as T.
  destruct (settings_parse _ payload []); try contradiction; repeat split; discriminate.
Qed.
Theorem C11_qpack_section_total :
  forall bs, match qpack_decode bs with Val _ => True | Err _ => True | _ => False end.
Proof. exact qpack_decode_total. Qed.
Theorem C11_headers_total :
  forall bs, match headers_with_frame bs with Val _ => True | Err e => e = EDecompression | _ => False end.
Proof. intros bs. unfold headers_with_frame. pose proof (qpack_decode_total bs) as T. destruct (qpack_decode bs); auto. Qed.

(* QPACK prefix integers: total for every width, and a numeric field too large
   to represent is an error, never a silently wrong value: what is returned IS
   the mathematical value of the consumed bytes *)
Theorem C11_qpack_integer_total :
  forall n bs, n <= 8 ->
    match dec_int n bs with
    | Val (_, v, r) => (length r < length bs)%nat /\ v < two64
    | Err _ => True
    | _ => False
    end.
Proof. exact dec_int_total. Qed.
Theorem C11_qpack_integer_no_wrap :
  forall fuel value power bs v r, dec_int_rest fuel value power bs = Val (v, r) ->
    exists p, bs = p ++ r /\ p <> [] /\ v = value + groups_val power p /\ v < two64.
Proof.
  intros fuel value power bs v r H. pose proof (dec_int_rest_spec fuel value power bs) as S. rewrite H in S. exact S.
Qed.

(* quarter stream ids in range *)
Theorem C11_datagram_invariants :
  forall bs q p, dgram_read bs = Val (q, p) -> exists h, bs = h ++ p /\ h <> [] /\ q <= qstream_max.
Proof. exact dgram_read_some. Qed.

(* the code before the repair (fix: d9dcadc): panics with overflow checks, silently wrong without.
   Debug build: 10 continuation bytes => shift amount 70 => panic.  Release build: the group with
   power 63 loses its high bit: 2 * 2^63 wraps to 0 and the decoder returns 63 instead of reporting
   an overflow.  The repaired decoder refuses both. *)
Theorem C11_legacy_refuted :
  dec_int_rest_legacy true 20 63 0 ([128; 128; 128; 128; 128; 128; 128; 128; 128; 128] ++ [0]) = Panic /\
  dec_int_rest_legacy false 20 63 0 ([128; 128; 128; 128; 128; 128; 128; 128; 128] ++ [2]) = Val (63, []) /\
  63 + groups_val 0 ([128; 128; 128; 128; 128; 128; 128; 128; 128] ++ [2]) <> 63 /\
  dec_int_rest 20 63 0 ([128; 128; 128; 128; 128; 128; 128; 128; 128; 128] ++ [0]) = Err QIntegerOverflow /\
  dec_int_rest 20 63 0 ([128; 128; 128; 128; 128; 128; 128; 128; 128] ++ [2]) = Err QIntegerOverflow.
Proof. vm_compute. repeat split; try reflexivity. discriminate. Qed.

Example C11_example :
  qpack_decode [0; 0; 255; 128; 128; 128; 128; 128; 128; 128; 128; 128; 2] = Err QIntegerOverflow /\
  frame_read [0; 128; 0; 16; 1] = (RErr PPayloadTooBig, []).
Proof. vm_compute. split; reflexivity. Qed.
