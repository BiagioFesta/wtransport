(* C12 -- HTTP/3 and WebTransport stream rules are enforced with the prescribed error. *)
From WT.Model Require Import Base Frame Async StreamTS Wire Runner.
From WT.Spec Require Import Spec9114.
From WT.Proofs Require Import FrameP RunnerP SpecP ControlSpecP.

(* every accept/reject verdict of every typestate, for every frame, is the one
   of the specification table (RFC 9114 7.2, WT draft 4.2) with a prescribed code *)
Theorem C12_frame_rules :
  forall ts fd f,
    match snd (validate ts fd f), frame_rule (where_of ts) (kind_of (fk f)) (negb fd) with
    | None, None => True
    | Some e, Some codes => In (to_code e) codes
    | _, _ => False
    end.
Proof. intros ts fd f. destruct ts, fd, f as [[| | | |id] p s]; cbn; auto. Qed.

(* error codes equal their registered values *)
Theorem C12_registry :
  to_code EDatagram = H3_DATAGRAM_ERROR /\ to_code ENoError = H3_NO_ERROR /\
  to_code EStreamCreation = H3_STREAM_CREATION_ERROR /\ to_code EClosedCriticalStream = H3_CLOSED_CRITICAL_STREAM /\
  to_code EFrameUnexpected = H3_FRAME_UNEXPECTED /\ to_code EFrame = H3_FRAME_ERROR /\
  to_code EExcessiveLoad = H3_EXCESSIVE_LOAD /\ to_code EId = H3_ID_ERROR /\
  to_code ESettings = H3_SETTINGS_ERROR /\ to_code EMissingSettings = H3_MISSING_SETTINGS /\
  to_code ERequestRejected = H3_REQUEST_REJECTED /\ to_code EMessage = H3_MESSAGE_ERROR /\
  to_code EDecompression = QPACK_DECOMPRESSION_FAILED /\
  to_code EBufferedStreamRejected = WEBTRANSPORT_BUFFERED_STREAM_REJECTED /\
  to_code ESessionGone = WEBTRANSPORT_SESSION_GONE.
Proof. exact registry_matches. Qed.

Theorem C12_parse_error_codes :
  In (to_code EExcessiveLoad) oversize_frame /\ In (to_code EId) invalid_session_id /\
  In (to_code EFrame) frame_truncated_by_fin /\ In (to_code EClosedCriticalStream) critical_stream_closed /\
  In (to_code EStreamCreation) duplicate_critical_stream /\
  In (to_code EMissingSettings) control_first_not_settings /\ In (to_code EFrameUnexpected) control_first_not_settings /\
  In (to_code EFrameUnexpected) control_second_settings.
Proof. exact parse_errors_match. Qed.

(* control stream: SETTINGS first, exactly once; GREASE afterwards ignored; closing it is fatal *)
Theorem C12_control_settings_first :
  forall payload rest t f m, len payload <= max_parse_payload -> settings_with_frame payload = Val m ->
    settings_run (S f) None (frame_write (mkframe KSettings payload None) ++ rest) t = settings_run f (Some m) rest t.
Proof.
  intros * Hl Hs. rewrite settings_run_frame by (exact Hl || reflexivity). cbn [fk fpayload]. rewrite Hs. reflexivity.
Qed.
Theorem C12_control_missing_settings :
  forall id p rest t f, is_exercise id = true -> id <= varint_max -> len p <= max_parse_payload ->
    settings_run (S f) None (frame_write (mkframe (KExercise id) p None) ++ rest) t = (RClose EMissingSettings, None).
Proof. intros * Hx Hid Hl. exact (settings_run_frame f None _ rest t (exercise_frame_wf id p Hx Hid) Hl). Qed.
Theorem C12_control_repeated_settings :
  forall payload rest t f m, len payload <= max_parse_payload ->
    settings_run (S f) (Some m) (frame_write (mkframe KSettings payload None) ++ rest) t = (RClose EFrameUnexpected, Some m).
Proof. intros * Hl. exact (settings_run_frame f (Some m) (mkframe KSettings payload None) rest t eq_refl Hl). Qed.
Theorem C12_control_data_or_headers :
  forall k payload rest t f have, (k = KData \/ k = KHeaders) -> len payload <= max_parse_payload ->
    settings_run (S f) have (frame_write (mkframe k payload None) ++ rest) t = (RClose EFrameUnexpected, have).
Proof. intros * [-> | ->] Hl; rewrite settings_run_frame by (exact Hl || reflexivity); reflexivity. Qed.
Theorem C12_control_closed :
  forall f have t, settings_run (S f) have [] t =
    (match t with Lost => RNotConnected | _ => RClose EClosedCriticalStream end, have).
Proof. exact settings_run_closed. Qed.

(* duplicated critical streams *)
Theorem C12_duplicate_critical_stream :
  forall c k rest t,
    (k = SControl /\ has_control c = true) \/ (k = SQPackEncoder /\ has_enc c = true) \/
    (k = SQPackDecoder /\ has_dec c = true) ->
    uni_accept c (sheader_write (mksheader k None) ++ rest) t = (RClose EStreamCreation, c).
Proof. exact uni_accept_duplicate_critical. Qed.

(* sequences: for EVERY sequence of frames on the peer's control stream (SETTINGS, GREASE, unknown
   types, DATA, HEADERS, WebTransport signals, any payloads within the parse limit, any length) and
   every way the stream ends, the runner's reaction is the one the sequential rules of RFC 9114
   6.2.1 / 7.2.4 / 7.2.8 prescribe ([spec_control], an automaton over abstract items written from the
   RFC): close with one of the prescribed codes, or keep going.  By induction over the sequence. *)
Theorem C12_control_stream_refines_spec :
  forall items t, forallb citem_ok items = true ->
    refines (spec_control false items t) (settings_run (S (length items)) None (enc_citems items) t).
Proof. exact control_stream_refines_spec. Qed.
(* no permitted sequence is rejected *)
Theorem C12_permitted_control_stream_accepted :
  forall payload items,
    citem_ok (CSettings payload) = true -> forallb citem_ok items = true -> forallb benign items = true ->
    fst (settings_run (S (S (length items))) None (enc_citems (CSettings payload :: items)) Lost) = RNotConnected.
Proof. exact permitted_control_stream_accepted. Qed.

Definition ex_items : list citem :=
  [CUnknown 7 [1]; CSettings [1; 0]; CGrease 33 [9; 9]; CUnknown 16962 [0; 4; 0]; CData [1]].
Example C12_sequence_example :
  (forallb citem_ok ex_items = true) /\
  (spec_control false ex_items Fin = VClose [H3_FRAME_UNEXPECTED]) /\
  (fst (settings_run 6 None (enc_citems ex_items) Fin) = RClose EFrameUnexpected).
Proof. vm_compute. repeat split; reflexivity. Qed.

Example C12_example :
  settings_run 4 None [4; 0; 4; 0] Fin = (RClose EFrameUnexpected, Some []) /\
  settings_run 4 None [0; 1; 9] Fin = (RClose EFrameUnexpected, None) /\
  bi_accept [64; 65; 1] Fin = RClose EId /\
  bi_accept [4; 0] Fin = RClose EFrameUnexpected.
Proof. vm_compute. repeat split; reflexivity. Qed.
