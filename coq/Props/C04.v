(* C04 -- Session termination is reported with the peer's exact code and reason. *)
From WT.Model Require Import Base Varint Frame Async Wire Runner.
From WT.Proofs Require Import FrameP WireP RunnerP.

(* close capsule, wholly inside one DATA frame, preceded by any skippable
   elements (unknown / GREASE / HEADERS frames, other capsules): every 32-bit
   code, every UTF-8 reason up to 1024 bytes *)
Theorem C04_close_capsule_exact :
  forall items code reason trailing rest t f,
    forallb sitem_ok items = true ->
    code < 4294967296 -> len reason <= 1024 -> utf8_valid reason = true ->
    len (close_capsule_bytes code reason ++ trailing) <= max_parse_payload ->
    connect_run (S (sitems_frames items + f))
      (enc_sitems items ++ frame_write (mkframe KData (close_capsule_bytes code reason ++ trailing) None) ++ rest) t
    = RAppClosed code reason.
Proof. exact connect_run_close_capsule. Qed.

(* client side: the session stream is the one the response arrived on; whatever follows the response
   HEADERS (in the same packet or not) is interpreted by the same runner, nothing is lost in between *)
Theorem C04_client_side_after_response :
  forall payload rest t, len payload <= max_parse_payload ->
    client_established_run (frame_write (mkframe KHeaders payload None) ++ rest) t = connect_run 64 rest t.
Proof.
  intros payload rest t Hl. unfold client_established_run. rewrite client_rest_after_response by exact Hl.
  reflexivity.
Qed.

(* clean finish at a frame boundary = application close (0, "") *)
Theorem C04_clean_finish :
  forall items f, forallb sitem_ok items = true ->
    connect_run (S (sitems_frames items + f)) (enc_sitems items) Fin = RAppClosed 0 [].
Proof. intros items f. exact (connect_run_end items f Fin). Qed.

(* abrupt termination and malformed capsules are protocol failures, never application closes *)
Theorem C04_reset_is_protocol_failure :
  forall items f, forallb sitem_ok items = true ->
    connect_run (S (sitems_frames items + f)) (enc_sitems items) Reset = RClose EClosedCriticalStream.
Proof. intros items f. exact (connect_run_end items f Reset). Qed.

Theorem C04_fin_inside_frame_is_protocol_failure :
  forall items f fr p q, forallb sitem_ok items = true ->
    frame_wf fr = true -> len (fpayload fr) <= max_parse_payload ->
    frame_write fr = p ++ q -> p <> [] -> q <> [] ->
    connect_run (S (sitems_frames items + f)) (enc_sitems items ++ p) Fin = RClose EFrame.
Proof.
  intros items f fr p q Hok Hwf Hl Hw Hp Hq.
  exact (connect_run_fin_mid_frame items f p Hok (frame_read_prefix fr p q Hwf Hl Hw Hq) Hp).
Qed.

Theorem C04_malformed_capsule_is_protocol_failure :
  forall items body trailing rest t f, forallb sitem_ok items = true ->
    (len body < 4 \/ 1028 < len body \/ utf8_valid (skipn 4 body) = false) ->
    len body <= varint_max ->
    len (enc capsule_close_type ++ enc (len body) ++ body ++ trailing) <= max_parse_payload ->
    connect_run (S (sitems_frames items + f))
      (enc_sitems items ++
       frame_write (mkframe KData (enc capsule_close_type ++ enc (len body) ++ body ++ trailing) None) ++ rest) t
    = RClose EDatagram.
Proof. exact connect_run_malformed_capsule. Qed.

(* the capsule decoder itself: exact characterisation *)
Theorem C04_close_capsule_decoder :
  forall payload c r,
    close_with_capsule payload = Val (c, r) <->
    (4 <= len payload <= 1028 /\ c = unbe (firstn 4 payload) /\ r = skipn 4 payload /\ utf8_valid r = true).
Proof. exact close_with_capsule_spec. Qed.

(* what the endpoint answers on the wire: H3_NO_ERROR for an application close,
   the H3 code of the protocol failure otherwise *)
Theorem C04_wire_code :
  forall e, close_code_of e = match e with
                              | DAppClosed _ _ => Some 256
                              | DProto c => Some (to_code c)
                              | DNotConnected => None
                              end.
Proof. intros e. reflexivity. Qed.

Example C04_example :
  connect_run 8 (frame_write (mkframe KData (close_capsule_bytes 7 [98; 121; 101]) None)) Lost = RAppClosed 7 [98; 121; 101] /\
  connect_run 8 [] Fin = RAppClosed 0 [] /\ connect_run 8 [0; 5; 1] Fin = RClose EFrame.
Proof. vm_compute. repeat split; reflexivity. Qed.
