(* C06 -- Stream termination signals carry their codes end to end (library side: conversions and mappings;
   quinn's stream life-cycle is an oracle, exercised by the wire suite "signals"). *)
From WT.Model Require Import Base Term.

Theorem C06_code_conversions_identity : forall x, varint_q2w (varint_w2q x) = x /\ varint_w2q (varint_q2w x) = x.
Proof. intros x. split; reflexivity. Qed.
Theorem C06_conversion_asserts_hold : forall x, x <= varint_max -> varint_conv_assert x = true.
Proof. intros x H. unfold varint_conv_assert. apply N.leb_le. exact H. Qed.

Theorem C06_reset_code_reported :
  forall e, map_read e = match e with
    | QRReset c => SRReset c | QRConnectionLost | QRClosedStream => SRNotConnected | _ => SRQuicProto end.
Proof. intros e. reflexivity. Qed.
Theorem C06_stop_code_reported_on_write :
  forall e, map_write e = match e with
    | QWStopped c => SWStopped c | QWConnectionLost | QWClosedStream => SWNotConnected | QWZeroRtt => SWQuicProto end.
Proof. intros e. reflexivity. Qed.
Theorem C06_stop_code_reported_on_stopped :
  forall e, map_stopped e = match e with
    | QSNone => SWClosed | QSSome c => SWStopped c | QSConnectionLost => SWNotConnected | QSZeroRtt => SWQuicProto end.
Proof. intros e. reflexivity. Qed.

Theorem C06_codes_never_altered :
  (forall c d, map_write (QWStopped c) = map_write (QWStopped d) -> c = d) /\
  (forall c d, map_read (QRReset c) = map_read (QRReset d) -> c = d) /\
  (forall c, map_stopped (QSSome c) <> map_stopped QSNone).
Proof.
  cbn. split; [|split].
  - intros c d [= H]. exact H.
  - intros c d [= H]. exact H.
  - discriminate.
Qed.

(* finish succeeds only once the peer has acknowledged everything *)
Theorem C06_finish_iff_acknowledged : forall e, finish_result e = None <-> e = QSNone.
Proof. intros e. destruct e; cbn; split; congruence. Qed.
Theorem C06_finish_reports_stop : forall c, finish_result (QSSome c) = Some (SWStopped c).
Proof. intros c. reflexivity. Qed.

Example C06_example :
  map_read (QRReset 4611686018427387903) = SRReset 4611686018427387903 /\ finish_result QSNone = None.
Proof. split; reflexivity. Qed.
