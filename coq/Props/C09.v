(* C09 -- Termination is prompt, total and never misattributed (the library's own logic: the set-once
   result cell, the worker's exit protocol, the error mapping; "bounded time" is bounded steps of the model;
   runtime wake-ups are observed by the wire suites). *)
From WT.Model Require Import Base Frame Runner Term Closing Handoff.
From WT.Proofs Require Import TermP ClosingP.

Theorem C09_at_most_one_result :
  forall (V : Type) ops (c : cell V),
    (count_accepted (snd (crun c ops)) <= match cval c with None => 1 | Some _ => 0 end)%nat.
Proof. exact @at_most_one_set. Qed.

Theorem C09_every_get_after_the_result_returns_it :
  forall (V : Type) ops (c : cell V) v, cval c = Some v ->
    Forall (fun x => match x with OGot w => w = v | OSet b => b = false | OGotNone | OPending => False | _ => True end)
           (snd (crun c ops)).
Proof. exact @get_after_set. Qed.

Theorem C09_no_result_only_if_abandoned :
  forall (V : Type) (c : cell V), snd (cstep c CGet) = OGotNone -> cval c = None /\ setters c = 0%nat.
Proof. exact @get_none_only_if_abandoned. Qed.

(* attribution: each error names the actual cause *)
Theorem C09_peer_capsule_or_fin : forall c r q, with_driver_error (DAppClosed c r) q = CEApplicationClosed c r.
Proof. intros c r q. reflexivity. Qed.
Theorem C09_local_protocol_error : forall e q, with_driver_error (DProto e) q = CELocalH3 e.
Proof. intros e q. reflexivity. Qed.
Theorem C09_peer_quic_close : forall c r, with_driver_error DNotConnected (Some (QApp c r)) = CEApplicationClosed c r.
Proof. intros c r. reflexivity. Qed.
Theorem C09_transport_cause_or_local_close :
  forall q, with_driver_error DNotConnected q = match q with Some x => of_quinn x | None => CELocallyClosed end.
Proof. intros q. reflexivity. Qed.

(* the worker closes the transport with the code of the cause it reports, then publishes the cause *)
Theorem C09_worker_exit_code :
  forall r e, derr_of_reaction r = Some e ->
    close_code_of e = match r with
                      | RClose c => Some (to_code c)
                      | RAppClosed _ _ => Some (to_code ENoError)
                      | _ => None
                      end.
Proof. intros r e. destruct r; cbn; intros [= <-]; reflexivity. Qed.

(* every pending or later accept call observes the end (Model/Closing.v: who keeps a channel open) *)
(* a call reports the end exactly when its own channel is empty, the worker has ended and no task of ITS kind is left *)
Theorem C09_accept_reports_end_iff :
  forall k s, snd (accept k s) = AErr <->
    kchan (kof k s) = [] /\ worker_alive s = false /\ kparked (kof k s) = [] /\ kreading (kof k s) = [].
Proof. exact accept_err_iff. Qed.
(* the other kind of stream never matters: however large its backlog, however many of its tasks are parked *)
Theorem C09_end_reported_despite_other_backlog :
  forall s, kchan (cbi (worker_exit s)) = [] -> kparked (cbi (worker_exit s)) = [] ->
    snd (accept KBi (worker_exit s)) = AErr.
Proof. intros s H1 H2. apply accept_err_iff. cbn [kof]. repeat split; auto. Qed.
Theorem C09_accept_independent_of_other_kind :
  forall s s',
    (cuni s = cuni s' -> worker_alive s = worker_alive s' -> snd (accept KUni s) = snd (accept KUni s')) /\
    (cbi s = cbi s' -> worker_alive s = worker_alive s' -> snd (accept KBi s) = snd (accept KBi s')).
Proof.
  intros s s'.
  split; intros H1 H2; unfold accept, senders_alive, kof; rewrite H1, H2; destruct (kchan _); reflexivity.
Qed.
(* an application that keeps accepting after the end is handed the whole backlog, in order, then the end --
   bounded by the size of the backlog, for every capacity and backlog *)
Theorem C09_draining_reaches_the_end :
  forall cap k, (1 <= cap)%nat -> forall q s, quiet cap k s -> queue k s = q ->
    drain_calls cap k (S (length q)) s = map AItem q ++ [AErr].
Proof. intros cap k Hcap q s (Hw & Hr & _). apply drain_to_the_end; [exact Hcap|split; assumption]. Qed.
(* a design in which the per-stream tasks keep BOTH channels open is refuted: one parked task of the other
   kind and the call never returns, and no step of its own kind's tasks changes that (this is seeded change C09-5) *)
Theorem C09_shared_senders_refuted :
  let s := mkcst (mkkst [1; 2; 3; 4] [5] []) (mkkst [] [] []) false in
  snd (accept KBi s) = AErr /\ snd (accept_shared KBi s) = APending /\
  snd (accept_shared KBi (task_send 1 KBi s)) = APending.
Proof. cbn. repeat split; reflexivity. Qed.

(* Closing.v is the per-kind projection of the hand-off system of Handoff.v (C07/C08): its moves are that
   system's TaskSend and AppRecv, so the two sets of theorems speak about one and the same machine *)
Theorem C09_closing_refines_handoff_send :
  forall cap k c s id p, kof k c = kst_of s -> ready s = id :: p ->
    match step cap s (TaskSend id) with
    | Some s' => kof k (task_send cap k c) = kst_of s'
    | None => task_send cap k c = c
    end.
Proof. exact task_send_is_handoff_step. Qed.
Theorem C09_closing_refines_handoff_recv :
  forall cap k c s id r, kof k c = kst_of s -> chan s = id :: r ->
    snd (accept k c) = AItem id /\
    exists s', step cap s AppRecv = Some s' /\ kof k (fst (accept k c)) = kst_of s'.
Proof. exact accept_is_handoff_step. Qed.

Example C09_example :
  snd (crun (mkcell (@None N) 1) [CGet; CSet 7; CSet 9; CGet; CDropSetter; CGet]) =
  [OPending; OSet true; OSet false; OGot 7; ONothing; OGot 7].
Proof. reflexivity. Qed.
