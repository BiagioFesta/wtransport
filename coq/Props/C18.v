(* C18 -- Only well-formed WebTransport requests and responses are admitted. *)
From WT.Model Require Import Base Ids Qpack Session.
From WT.Proofs Require Import WireP SessionP.
From Coq Require Import Lia.

Theorem C18_request_admitted_iff :
  forall h, (exists r, request_try_from h = inr r) <->
    (has k_method v_connect h /\ has k_scheme v_https h /\ has k_protocol v_webtransport h /\
     present k_authority h /\ present k_path h).
Proof. exact request_admitted_iff. Qed.

Theorem C18_admitted_request_unchanged : forall h r, request_try_from h = inr r -> r = h.
Proof. intros h r E. pose proof (request_try_from_spec h) as S. rewrite E in S. exact (proj1 S). Qed.

(* the two classes of refusal: bi_accept answers HMethodNotConnect with H3_REQUEST_REJECTED and every other
   refusal with H3_MESSAGE_ERROR, on that stream (Model/Runner.v) *)
Theorem C18_refusal_class :
  forall h, match request_try_from h with
            | inr _ => True
            | inl HMethodNotConnect => exists m, hget k_method h = Some m /\ m <> v_connect
            | inl e => e <> HMethodNotConnect
            end.
Proof.
  intros h. pose proof (request_try_from_spec h) as S. destruct (request_try_from h) as [e|r]; [|exact I].
  destruct e; try discriminate. exact (proj2 S).
Qed.

(* a status value never escapes 100..599 through any constructor *)
Theorem C18_status_from_str_range : forall s n, status_from_str s = Some n -> 100 <= n <= 599.
Proof. exact status_from_str_range. Qed.
Theorem C18_status_numeric_range : forall v n, status_try_from v = Some n -> n = v /\ 100 <= n <= 599.
Proof. intros v n H. apply status_try_from_some in H as [-> H]. auto. Qed.
Theorem C18_status_default_range : 100 <= status_default <= 599.
Proof. split; discriminate. Qed.
Theorem C18_status_print_parse : forall n, 100 <= n <= 599 -> status_from_str (show_dec n) = Some n.
Proof. exact status_show_parse. Qed.
Theorem C18_response_status_range : forall h c, response_try_from h = inr c -> 100 <= c <= 599.
Proof.
  intros h c. unfold response_try_from. destruct (hget k_status h) as [s|]; [|discriminate].
  destruct (status_from_str s) as [v|] eqn:E; [|discriminate]. intros [= <-]. exact (status_from_str_range _ _ E).
Qed.
Theorem C18_acceptance_iff_2xx : forall v, status_is_successful v = true <-> 200 <= v <= 299.
Proof. exact status_is_successful_spec. Qed.

(* reserved pseudo-header fields cannot be overridden *)
Theorem C18_insert_reserved_refused : forall k v req, request_insert k v req = None <-> is_reserved k = true.
Proof. intros k v req. unfold request_insert. destruct (is_reserved k); split; congruence. Qed.
Theorem C18_insert_preserves_reserved :
  forall k v req req' r, request_insert k v req = Some req' -> In r reserved_headers -> hget r req' = hget r req.
Proof. exact insert_preserves_reserved. Qed.
Theorem C18_request_fields_are_the_urls :
  forall a p,
    hget k_method (request_new a p) = Some v_connect /\ hget k_scheme (request_new a p) = Some v_https /\
    hget k_protocol (request_new a p) = Some v_webtransport /\
    hget k_authority (request_new a p) = Some a /\ hget k_path (request_new a p) = Some p /\
    length (request_new a p) = 5%nat.
Proof. exact request_new_fields. Qed.

(* the code before the repair (fix: 15c4e38) let out-of-range statuses through *)
Theorem C18_legacy_refuted :
  (exists s n, status_from_str_legacy s = Some n /\ ~ (100 <= n <= 599)) /\ ~ (100 <= status_default_legacy <= 599).
Proof. split. - exists [57; 57; 57], 999. split; [reflexivity|lia]. - unfold status_default_legacy. lia. Qed.

Example C18_example :
  status_from_str [50; 48; 48] = Some 200 /\ status_from_str [57; 57; 57] = None /\ status_from_str [43; 50; 48; 48] = Some 200 /\
  request_insert k_path [47] (request_new [97] [47]) = None.
Proof. vm_compute. repeat split; reflexivity. Qed.
