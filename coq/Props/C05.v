(* C05 -- Control-plane interpretation is independent of segmentation and interleaving. *)
From WT.Model Require Import Base Frame Async Runner Select.
From WT.Proofs Require Import MachineP SelectP RunnerP.

(* segmentation: with no cancellation, every split of the bytes into packets and every pattern
   of not-ready results gives the same outcome after consuming the same bytes *)
Theorem C05_segmentation_varint :
  forall data sch t,
    exists s', drive_c (repeat EvPoll (S (length sch))) gv_init (mksrc data sch t) = Some (fst (gv_final data t), s') /\
               sdata s' = snd (gv_final data t).
Proof. intros data sch t. rewrite drive_c_polls. apply get_varint_machine_refines. Qed.

Theorem C05_segmentation_buffer :
  forall (E : Type) n data sch t,
    exists s', drive (S (length sch)) (gb_poll (S n) n) [] (mksrc data sch t) =
               Some (match @a_get_buffer E n data t with
                     | AOk p _ => inr p | AIo e _ => inl e | AParse _ _ => inl IoLost end, s') /\
               sdata s' = match @a_get_buffer E n data t with AOk _ r => r | AIo _ r => r | AParse _ r => r end.
Proof. exact get_buffer_machine_refines. Qed.

(* interleaving: other connection events make the worker's select! loop drop and re-create the
   future that reads the control plane.  Dropping it while it holds no partial progress is harmless *)
Theorem C05_cancel_without_progress_harmless :
  forall evs st s, cancel_safe evs st s = true -> drive_c evs st s = drive_c (filter is_poll evs) st s.
Proof. exact select_cancel_safe. Qed.

(* ... but the worker of the pinned tree can drop it in the middle of a frame: the bytes already
   consumed are lost and the remainder is mis-parsed.  This is the known finding of C05
   (known_findings.json: control-plane-read-future-dropped-mid-frame); by the theorem above it is
   the ONLY way a segmentation/interleaving can change the outcome. *)
Theorem C05_refuted_on_pinned_tree :
  exists data sch t evs,
    drive_c evs gv_init (mksrc data sch t) <> drive_c (filter is_poll evs) gv_init (mksrc data sch t) /\
    length (filter (fun e => negb (is_poll e)) evs) = 1%nat.
Proof.
  exists [64; 200; 7; 7; 7], [Chunk 1; Pend], Fin, [EvPoll; EvCancel; EvPoll; EvPoll].
  split; [vm_compute; discriminate|reflexivity].
Qed.

(* the client's hand-off of the session stream from Endpoint::connect to the driver: the bytes the
   peer sent after the response HEADERS (e.g. a close capsule in the same packet) are exactly what
   the session runner sees: none is consumed or dropped by the code that read the response *)
Theorem C05_client_handoff_keeps_every_byte :
  forall payload rest t, len payload <= max_parse_payload ->
    client_session_rest (frame_write (mkframe KHeaders payload None) ++ rest) t = Some rest.
Proof. exact client_rest_after_response. Qed.

Example C05_example :
  cancel_safe [EvCancel; EvPoll; EvPoll] gv_init (mksrc [64; 200] [Chunk 1] Fin) = true /\
  cancel_safe [EvPoll; EvCancel; EvPoll] gv_init (mksrc [64; 200] [Chunk 1; Pend] Fin) = false.
Proof. vm_compute. split; reflexivity. Qed.
