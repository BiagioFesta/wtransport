(* C16 -- Everything the endpoint emits is well-formed HTTP/3 and WebTransport. *)
From WT.Model Require Import Base Varint Frame Wire Qpack Emit.
From WT.Spec Require Import Spec9114.
From WT.Proofs Require Import WireP QpackP SpecP EmitP QpackRT EmitOrderP.

(* the control stream: stream type 0x00 then exactly one SETTINGS frame whose content, for every
   iteration order of the map, is the set of settings below *)
Theorem C16_control_stream :
  forall order rest, forallb pair_ok order = true -> sok_nodup [] order = true ->
    len (settings_payload order) <= max_parse_payload ->
    exists r1, sheader_read (emit_control order ++ rest) = (SVal (mksheader SControl None), r1) /\
               frame_read r1 = (RVal (mkframe KSettings (settings_payload order) None), rest) /\
               settings_with_frame (settings_payload order) = Val (filter sok order).
Proof. exact emit_control_decodes. Qed.

Theorem C16_settings_advertised :
  forall k v, In (k, v) local_settings <->
    (k, v) = (SETTINGS_QPACK_MAX_TABLE_CAPACITY, 0) \/ (k, v) = (SETTINGS_QPACK_BLOCKED_STREAMS, 0) \/
    (k, v) = (SETTINGS_ENABLE_CONNECT_PROTOCOL, 1) \/ (k, v) = (SETTINGS_ENABLE_WEBTRANSPORT, 1) \/
    (k, v) = (SETTINGS_H3_DATAGRAM, 1) \/ (k, v) = (SETTINGS_WEBTRANSPORT_MAX_SESSIONS, 1).
Proof.
  intros k v. generalize (k, v). intros x. unfold local_settings. cbn [In].
  split; intros H; decompose [or] H; try contradiction; auto 10.
Qed.

Theorem C16_stream_preambles :
  (forall sid, emit_uni_preamble sid = enc STREAM_WEBTRANSPORT ++ enc sid) /\
  (forall sid, emit_bi_preamble sid = enc FRAME_WEBTRANSPORT_STREAM ++ enc sid).
Proof. split; reflexivity. Qed.

Theorem C16_datagram_prefix : forall sid p, emit_datagram sid p = enc (sid / 4) ++ p.
Proof. intros sid p. unfold emit_datagram, drv_dgram_write. rewrite q_from_session_div. reflexivity. Qed.

(* no dynamic table: every field section starts with Required Insert Count = 0 and Base = 0 *)
Theorem C16_field_sections_static_only : forall l, exists r, qpack_encode l = 0 :: 0 :: r.
Proof. intros l. unfold qpack_encode. cbn [app]. eauto. Qed.

(* pseudo-header fields first, whatever the map holds; every field line is a static-table reference
   or a literal (never a dynamic-table or post-base reference); and what is emitted decodes, under
   the decoder transcribed in Model/Qpack.v, to exactly the fields that were put in *)
Theorem C16_pseudo_headers_first : forall m, pfirst false (sorted_headers m) = true.
Proof. exact sorted_headers_pseudo_first. Qed.
Theorem C16_field_lines_static_or_literal :
  forall kv, exists b r, enc_field kv = b :: r /\ static_or_literal b = true.
Proof. exact enc_field_static_or_literal. Qed.
Theorem C16_field_sections_decode :
  forall l, fields_okb l = true -> qpack_decode (qpack_encode l) = Val (fold_left ins l []).
Proof. exact qpack_roundtrip_b. Qed.

Theorem C16_static_references_sound :
  forall k v,
    match lookup_index k v with
    | LKeyValue i => lookup_field i = Some (k, v)
    | LKeyOnly i => exists v', lookup_field i = Some (k, v')
    | LNone => True
    end.
Proof. exact lookup_index_sound. Qed.

Theorem C16_error_codes_registered :
  to_code EDatagram = H3_DATAGRAM_ERROR /\ to_code ENoError = H3_NO_ERROR /\
  to_code EStreamCreation = H3_STREAM_CREATION_ERROR /\ to_code EClosedCriticalStream = H3_CLOSED_CRITICAL_STREAM /\
  to_code EFrameUnexpected = H3_FRAME_UNEXPECTED /\ to_code EFrame = H3_FRAME_ERROR /\
  to_code EExcessiveLoad = H3_EXCESSIVE_LOAD /\ to_code EId = H3_ID_ERROR /\
  to_code ESettings = H3_SETTINGS_ERROR /\ to_code EMissingSettings = H3_MISSING_SETTINGS /\
  to_code ERequestRejected = H3_REQUEST_REJECTED /\ to_code EMessage = H3_MESSAGE_ERROR /\
  to_code EDecompression = QPACK_DECOMPRESSION_FAILED /\
  to_code EBufferedStreamRejected = WEBTRANSPORT_BUFFERED_STREAM_REJECTED /\
  to_code ESessionGone = WEBTRANSPORT_SESSION_GONE.
Proof. exact registry_matches. Qed.

Example C16_example :
  emit_control local_settings = [0; 4; 22; 1; 0; 7; 0; 8; 1; 171; 96; 55; 66; 1; 51; 1; 192; 0; 0; 0; 198; 113; 112; 106; 1] /\
  emit_datagram 8 [9] = [2; 9] /\ alpn = [104; 51].
Proof. vm_compute. repeat split; reflexivity. Qed.
