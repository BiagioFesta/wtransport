(* C07 -- Streams are independent: a stalled stream never blocks the others.
   Theorems about the hand-off transition system (Model/Handoff.v), for every capacity,
   every number of stalled streams and every interleaving. *)
From WT.Model Require Import Base Handoff Trace.
From WT.Proofs Require Import HandoffP TraceP.
From Coq Require Import Lia.

(* safety: nothing a stalled stream does or fails to do disables the worker, another stream's task or the application *)
Theorem C07_accept_never_blocked : forall cap s id q, quinn_q s = id :: q -> step cap s WorkerAccept <> None.
Proof. intros cap s id q H. cbn [step]. rewrite H. discriminate. Qed.
Theorem C07_send_needs_only_channel_room :
  forall cap s id, In id (ready s) -> (length (chan s) < cap)%nat -> step cap s (TaskSend id) <> None.
Proof.
  (* were the send of a ready stream disabled, the channel would be full *)
  intros cap s id H1 H2 E. apply send_disabled_iff in E; [lia|exact H1].
Qed.
Theorem C07_recv_needs_only_an_item : forall cap s id c, chan s = id :: c -> step cap s AppRecv <> None.
Proof. intros cap s id c H. cbn [step]. rewrite H. discriminate. Qed.

(* progress: from ANY state, a healthy stream j queued behind any streams (stalled or not) is delivered
   by a plan of bounded length that uses only worker and application steps and j's own steps *)
Theorem C07_healthy_stream_is_delivered :
  forall cap s pre j post, (1 <= cap)%nat -> quinn_q s = pre ++ j :: post ->
    exists s', run (step cap) s
                 (repeat WorkerAccept (S (length pre)) ++ [PeerPreamble j] ++ drain (length (chan s)) ++ [TaskSend j; AppRecv])
               = Some s' /\ In j (delivered s').
Proof. exact healthy_stream_is_delivered. Qed.

(* the design of the pinned tree (slots reserved before the QUIC accept): one stream stalled before its
   preamble and NOTHING is delivered any more -- repaired by fix: d04ce45 *)
Theorem C07_legacy_refuted :
  forall a ls s', forallb (no_progress_of a) ls = true ->
    run (step_legacy 1) hinit ([PeerOpen a; WorkerAccept] ++ ls) = Some s' -> delivered s' = [].
Proof. exact legacy_one_stalled_stream_blocks_all. Qed.

(* the same on the validator of OBSERVED traces (suite "trace": the running driver's own event log): in every
   state it can reach -- any number of streams stuck in their tasks, waiting for a slot or filling the channel --
   a further stream is accepted and its preamble is taken *)
Theorem C07_observed_accept_never_blocked :
  forall cap o id, exited o = false -> mem id (opened (hs o)) = false -> ostep cap o (OAccept id) <> None.
Proof. exact observed_accept_never_blocked. Qed.
Theorem C07_observed_preamble_never_blocked :
  forall cap o id o1, quinn_q (hs o) = [] -> ostep cap o (OAccept id) = Some o1 -> ostep cap o1 (OPreWt id) <> None.
Proof. exact observed_preamble_never_blocked. Qed.

Example C07_example :
  exists s', run (step 1) hinit [PeerOpen 4; WorkerAccept; PeerOpen 8; WorkerAccept; PeerPreamble 8; TaskSend 8; AppRecv] = Some s'
             /\ delivered s' = [8] /\ waiting s' = [4].
Proof. exact repaired_delivers. Qed.
