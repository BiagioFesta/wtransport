(* SelectP.v -- cancellation of control-plane reads (C05) *)
From WT.Model Require Import Base Async Select.

Lemma drive_c_polls n : forall st s, drive_c (repeat EvPoll n) st s = drive n gv_poll st s.
Proof.
  induction n as [|n IH]; intros st s; [reflexivity|]. cbn [repeat drive_c drive].
  destruct (gv_poll st s) as [[[|a] st'] s']; [apply IH|reflexivity].
Qed.

Lemma drive_c_empty_state evs : forall st1 st2 s, gv_got st1 = [] -> gv_got st2 = [] ->
  drive_c evs st1 s = drive_c evs st2 s.
Proof.
  induction evs as [|[|] evs IH]; intros st1 st2 s H1 H2; cbn [drive_c]; try reflexivity.
  unfold gv_poll. rewrite H1, H2.
  destruct (poll_read 1 s) as [[|d| |e] s1]; [apply IH; assumption|reflexivity..].
Qed.

Theorem select_cancel_safe evs : forall st s, cancel_safe evs st s = true ->
  drive_c evs st s = drive_c (filter is_poll evs) st s.
Proof.
  induction evs as [|e evs IH]; intros st s H; [reflexivity|].
  destruct e; cbn [cancel_safe drive_c filter is_poll] in *.
  - (* a poll is kept by the filter *)
    destruct (gv_poll st s) as [[[|a] st1] s1]; [apply IH; exact H|reflexivity].
  - (* a cancel: the state dropped held no byte (E), so it is as good as the initial one *)
    destruct (gv_got st) eqn:E; [|discriminate].
    rewrite (IH _ _ H). apply drive_c_empty_state; [reflexivity|exact E].
Qed.
