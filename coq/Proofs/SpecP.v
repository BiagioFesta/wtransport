(* SpecP.v -- the model's constants are those of Spec/Spec9114.v, and its error codes are among the prescribed
   ones; [kind_of] and [where_of] place the model's frame kinds and typestates in the specification's table
   (the table itself is compared in Props/C12.v) *)
From WT.Model Require Import Base Frame StreamTS Wire.
From WT.Spec Require Import Spec9114.

Definition kind_of (k : fkind) : kind :=
  match k with KData => DATA | KHeaders => HEADERS | KSettings => SETTINGS | KWebTransport => WT_STREAM | KExercise _ => GREASE end.
Definition where_of (ts : tstate) : where_ :=
  match ts with TUniRemote => OnControl | TBiRemote => OnRequestFromPeer | TBiLocal | TSession => OnRequestLocal end.

Theorem registry_matches :
  to_code EDatagram = H3_DATAGRAM_ERROR /\ to_code ENoError = H3_NO_ERROR /\
  to_code EStreamCreation = H3_STREAM_CREATION_ERROR /\ to_code EClosedCriticalStream = H3_CLOSED_CRITICAL_STREAM /\
  to_code EFrameUnexpected = H3_FRAME_UNEXPECTED /\ to_code EFrame = H3_FRAME_ERROR /\
  to_code EExcessiveLoad = H3_EXCESSIVE_LOAD /\ to_code EId = H3_ID_ERROR /\
  to_code ESettings = H3_SETTINGS_ERROR /\ to_code EMissingSettings = H3_MISSING_SETTINGS /\
  to_code ERequestRejected = H3_REQUEST_REJECTED /\ to_code EMessage = H3_MESSAGE_ERROR /\
  to_code EDecompression = QPACK_DECOMPRESSION_FAILED /\
  to_code EBufferedStreamRejected = WEBTRANSPORT_BUFFERED_STREAM_REJECTED /\
  to_code ESessionGone = WEBTRANSPORT_SESSION_GONE.
Proof. repeat split; reflexivity. Qed.

Theorem type_ids_match :
  fkind_id KData = FRAME_DATA /\ fkind_id KHeaders = FRAME_HEADERS /\ fkind_id KSettings = FRAME_SETTINGS /\
  fkind_id KWebTransport = FRAME_WEBTRANSPORT_STREAM /\
  skind_id SControl = STREAM_CONTROL /\ skind_id SQPackEncoder = STREAM_QPACK_ENCODER /\
  skind_id SQPackDecoder = STREAM_QPACK_DECODER /\ skind_id SWebTransport = STREAM_WEBTRANSPORT /\
  capsule_close_type = CAPSULE_CLOSE_WEBTRANSPORT_SESSION /\
  (forall id, is_exercise id = is_grease id) /\ (forall id, setting_reserved id = h2_reserved_setting id).
Proof. repeat split; reflexivity. Qed.

Theorem parse_errors_match :
  In (to_code EExcessiveLoad) oversize_frame /\ In (to_code EId) invalid_session_id /\
  In (to_code EFrame) frame_truncated_by_fin /\ In (to_code EClosedCriticalStream) critical_stream_closed /\
  In (to_code EStreamCreation) duplicate_critical_stream /\
  In (to_code EMissingSettings) control_first_not_settings /\ In (to_code EFrameUnexpected) control_first_not_settings /\
  In (to_code EFrameUnexpected) control_second_settings.
Proof. cbn. repeat split; auto 10. Qed.
