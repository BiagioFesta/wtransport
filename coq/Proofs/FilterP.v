(* FilterP.v -- C17 at the driver level: nothing of another session is ever returned, nothing of the
   caller's session is ever refused, order is kept, and nothing but the consumed prefix is touched. *)
From WT.Model Require Import Base Filter.

Theorem accept_loop_spec sid ch :
  let f := accept_loop sid ch in
  ch = discarded f ++ match returned f with Some x => [x] | None => [] end ++ remaining f /\
  Forall (fun y => snd y <> sid) (discarded f) /\
  match returned f with Some x => snd x = sid | None => remaining f = [] end.
Proof.
  induction ch as [|x r IH]; cbn [accept_loop]; [cbn; auto|].
  destruct (snd x =? sid) eqn:E; cbn [returned discarded remaining app].
  - (* x is the caller's: returned, nothing discarded *) apply N.eqb_eq in E. auto.
  - (* x is discarded and the loop goes on *)
    apply N.eqb_neq in E. destruct IH as (H1 & H2 & H3). rewrite <- H1. auto.
Qed.

Definition own (sid : N) (l : list item) : list item := filter (fun y => snd y =? sid) l.
Definition foreign (sid : N) (l : list item) : list item := filter (fun y => negb (snd y =? sid)) l.

Lemma own_foreign_only sid l : Forall (fun y => snd y <> sid) l -> own sid l = [] /\ foreign sid l = l.
Proof.
  induction 1 as [|y l Hy _ IH]; [auto|]. apply N.eqb_neq in Hy. unfold own, foreign in *. cbn [filter].
  rewrite Hy. cbn [negb]. destruct IH as (IH1 & IH2). rewrite IH1, IH2. auto.
Qed.

Lemma own_app sid a b : own sid (a ++ b) = own sid a ++ own sid b.
Proof. apply filter_app. Qed.
Lemma foreign_app sid a b : foreign sid (a ++ b) = foreign sid a ++ foreign sid b.
Proof. apply filter_app. Qed.

Theorem accept_n_spec n sid : forall ch g d r, accept_n n sid ch = (g, d, r) ->
  exists consumed, ch = consumed ++ r /\ g = own sid consumed /\ d = foreign sid consumed.
Proof.
  induction n as [|n IH]; intros ch g d r H; cbn [accept_n] in H.
  - injection H as <- <- <-. exists []. auto.
  - destruct (accept_loop_spec sid ch) as (H1 & H2 & H3). destruct (own_foreign_only sid _ H2) as (O & F).
    destruct (returned (accept_loop sid ch)) as [x|].
    + (* this call consumes the discarded items and x, the n calls to come consume c1 *)
      destruct (accept_n n sid (remaining (accept_loop sid ch))) as [[g1 d1] r1] eqn:E.
      injection H as <- <- <-. destruct (IH _ _ _ _ E) as (c1 & C1 & -> & ->). apply N.eqb_eq in H3.
      exists (discarded (accept_loop sid ch) ++ x :: c1). rewrite own_app, foreign_app, O, F.
      unfold own, foreign. cbn [filter]. rewrite H3, <- app_assoc. cbn [negb app]. rewrite <- C1. auto.
    + (* the channel ran empty: all of it was discarded *)
      injection H as <- <- <-. exists (discarded (accept_loop sid ch)). rewrite O, F. auto.
Qed.

Corollary accept_n_never_delivers_foreign n sid ch g d r :
  accept_n n sid ch = (g, d, r) -> Forall (fun y => snd y = sid) g /\ Forall (fun y => snd y <> sid) d.
Proof.
  intros H. destruct (accept_n_spec _ _ _ _ _ _ H) as (c & _ & -> & ->). split; apply Forall_forall; intros y Hy.
  - apply filter_In in Hy. destruct Hy as (_ & Hy). apply N.eqb_eq in Hy. exact Hy.
  - apply filter_In in Hy. destruct Hy as (_ & Hy). apply Bool.negb_true_iff, N.eqb_neq in Hy. exact Hy.
Qed.

Example filter_example :
  accept_n 2 0 [(3, 4); (7, 0); (11, 8); (15, 0); (19, 0)] = ([(7, 0); (15, 0)], [(3, 4); (11, 8)], [(19, 0)]) /\
  discard_code = 966049156.
Proof. vm_compute. split; reflexivity. Qed.
