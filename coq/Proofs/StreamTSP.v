(* StreamTSP.v -- the typestates' read_frame loops: termination (fuel is never exhausted), unknown
   frames are transparent (C13), the async loop is a function of the sync loop and the buffered read
   moves its offset only past a frame (C15). *)
From WT.Model Require Import Base Varint Frame Async StreamTS.
From WT.Proofs Require Import VarintP FrameP AsyncP.
From Coq Require Import Lia.

Lemma read_frame_fuel ts fd n : forall m bs, (length bs < n)%nat -> (length bs < m)%nat ->
  read_frame n ts fd bs = read_frame m ts fd bs /\ read_frame n ts fd bs <> TOutOfFuel.
Proof.
  induction n as [|n IH]; intros [|m] bs Hn Hm; [easy..|]. cbn [read_frame].
  destruct (frame_read bs) as [[f| |[]] r] eqn:E; try (split; congruence).
  (* left: a frame (validated the same at both fuels), and an unknown frame, where the loop goes on *)
  - destruct (validate ts fd f) as [fd' [e|]]; split; congruence.
  - pose proof (frame_read_progress _ _ _ E ltac:(discriminate)). apply IH; lia.
Qed.

Corollary read_frame_terminates ts fd bs : read_frame (fuel_for bs) ts fd bs <> TOutOfFuel.
Proof. apply (read_frame_fuel ts fd _ (fuel_for bs)); apply Nat.lt_succ_diag_r. Qed.

Lemma read_frame_progress fuel : forall ts fd bs f r fd',
  read_frame fuel ts fd bs = TFrame f r fd' -> (length r < length bs)%nat.
Proof.
  induction fuel as [|n IH]; intros ts fd bs f r fd'; [discriminate|].
  cbn [read_frame]. destruct (frame_read bs) as [[g| |[]] r0] eqn:E; try discriminate.
  (* a frame is returned at once, or after an unknown one: Frame::read consumed something either way *)
  all: pose proof (frame_read_progress _ _ _ E ltac:(discriminate)) as P.
  - destruct (validate ts fd g) as [fd2 [e|]]; [discriminate|]. intros [= <- <- <-]. exact P.
  - intros H. apply IH in H. exact (Nat.lt_trans _ _ _ H P).
Qed.

(* strip the complete unknown frames at the front: where the next Frame::read starts *)
Fixpoint after_unknowns (fuel : nat) (bs : bytes) : bytes :=
  match fuel with
  | O => bs
  | S k => match frame_read bs with
           | (RErr PUnknown, r) => after_unknowns k r
           | _ => bs
           end
  end.

Theorem read_frame_paths_agree n : forall m ts fd bs t, (length bs < n)%nat -> (length bs < m)%nat ->
  match read_frame n ts fd bs with
  | TFrame f r fd' => read_frame_async m ts fd bs t = ATFrame f r fd'
  | TErr e r fd' => read_frame_async m ts fd bs t = ATH3 e r fd'
  | TNeedMore _ fd' =>
      fd' = fd /\
      read_frame_async m ts fd bs t =
        match eof_err t (is_nil (after_unknowns n bs)) with
        | UnexpectedFin => ATH3 EFrame [] fd
        | e => ATIo e [] fd
        end
  | TOutOfFuel => False
  end.
Proof.
  induction n as [|n IH]; intros [|m] ts fd bs t Hn Hm; [easy..|].
  cbn [read_frame read_frame_async after_unknowns].
  rewrite frame_read_async_eq. destruct (frame_read bs) as [[f| |[]] r] eqn:E; try reflexivity.
  - (* a frame *) destruct (validate ts fd f) as [fd' [e|]]; reflexivity.
  - (* the input ends here: after_unknowns stops at bs *)
    split; [reflexivity|]. destruct (eof_err t (is_nil bs)); reflexivity.
  - (* an unknown frame: all three go on from r *)
    pose proof (frame_read_progress _ _ _ E ltac:(discriminate)). apply IH; lia.
Qed.

Lemma read_frame_async_fuel ts fd t n m d : (length d < n)%nat -> (length d < m)%nat ->
  read_frame_async n ts fd d t = read_frame_async m ts fd d t /\ read_frame_async n ts fd d t <> ATOutOfFuel.
Proof.
  (* at either fuel the result is what the sync loop at fuel n says *)
  intros Hn Hm. pose proof (read_frame_paths_agree n n ts fd d t Hn Hn) as A.
  pose proof (read_frame_paths_agree n m ts fd d t Hn Hm) as B.
  destruct (read_frame n ts fd d) as [f r fd'|r fd'|e r fd'|]; [| | |destruct A].
  1,3: rewrite A, B; split; congruence.
  (* NeedMore: the same end-of-input error at both fuels *)
  destruct A as [_ ->], B as [_ ->]. destruct (eof_err t _); split; congruence.
Qed.

Definition unknown_frame (t : N) (p : bytes) : bytes := enc t ++ enc (len p) ++ p.

Theorem frame_read_unknown t p rest :
  fkind_parse t = None -> t <= varint_max -> len p <= varint_max ->
  frame_read (unknown_frame t p ++ rest) = (RErr PUnknown, rest).
Proof.
  intros Hk Ht Hp. unfold frame_read, unknown_frame.
  rewrite <- !app_assoc, (get_enc _ _ Ht), Hk, (get_enc _ _ Hp), get_bytes_n_app. reflexivity.
Qed.

Lemma unknown_frame_longer t p rest : (length rest < length (unknown_frame t p ++ rest))%nat.
Proof. rewrite app_length. apply Nat.lt_add_pos_l, enc_app_pos. Qed.

Theorem read_frame_skips_unknown ts fd t p rest :
  fkind_parse t = None -> t <= varint_max -> len p <= varint_max ->
  read_frame (fuel_for (unknown_frame t p ++ rest)) ts fd (unknown_frame t p ++ rest)
  = read_frame (fuel_for rest) ts fd rest.
Proof.
  intros Hk Ht Hp. unfold fuel_for at 1. cbn [read_frame]. rewrite (frame_read_unknown _ _ _ Hk Ht Hp).
  apply read_frame_fuel; [apply unknown_frame_longer|apply Nat.lt_succ_diag_r].
Qed.

Theorem read_frame_async_skips_unknown ts fd t p rest tm :
  fkind_parse t = None -> t <= varint_max -> len p <= varint_max ->
  read_frame_async (fuel_for (unknown_frame t p ++ rest)) ts fd (unknown_frame t p ++ rest) tm
  = read_frame_async (fuel_for rest) ts fd rest tm.
Proof.
  intros Hk Ht Hp. unfold fuel_for at 1. cbn [read_frame_async].
  rewrite frame_read_async_eq, (frame_read_unknown _ _ _ Hk Ht Hp).
  apply read_frame_async_fuel; [apply unknown_frame_longer|apply Nat.lt_succ_diag_r].
Qed.

Lemma read_frame_async_known ts fd f rest t :
  frame_wf f = true -> len (fpayload f) <= max_parse_payload ->
  read_frame_async (fuel_for (frame_write f ++ rest)) ts fd (frame_write f ++ rest) t =
  match validate ts fd f with
  | (fd', None) => ATFrame f rest fd'
  | (fd', Some e) => ATH3 e rest fd'
  end.
Proof.
  intros Hwf Hl. unfold fuel_for. cbn [read_frame_async].
  rewrite frame_read_async_eq, (frame_read_write f rest Hwf Hl). reflexivity.
Qed.

Inductive item := IFrame (f : frame) | IUnknown (t : N) (p : bytes).

Definition item_ok (i : item) : bool :=
  match i with
  | IFrame f => frame_wf f && (len (fpayload f) <=? max_parse_payload)
  | IUnknown t p => match fkind_parse t with None => true | Some _ => false end
                    && (t <=? varint_max) && (len p <=? varint_max)
  end.
Definition enc_item (i : item) : bytes :=
  match i with IFrame f => frame_write f | IUnknown t p => unknown_frame t p end.
Fixpoint enc_items (l : list item) : bytes :=
  match l with [] => [] | i :: r => enc_item i ++ enc_items r end.
Definition is_known (i : item) : bool := match i with IFrame _ => true | IUnknown _ _ => false end.

(* the side condition of an unknown element, as [item_ok] above and [sitem_ok], [citem_ok] (RunnerP,
   ControlSpecP) spell it out *)
Definition unknown_ok (t : N) (p : bytes) : bool :=
  match fkind_parse t with None => true | Some _ => false end && (t <=? varint_max) && (len p <=? varint_max).

Lemma unknown_ok_inv t p : unknown_ok t p = true ->
  fkind_parse t = None /\ t <= varint_max /\ len p <= varint_max.
Proof.
  unfold unknown_ok. destruct (fkind_parse t); [discriminate|]. intros H. apply andb_prop in H as [Ht Hp].
  apply N.leb_le in Ht, Hp. auto.
Qed.

(* all frames obtained by calling read_frame again and again, and how it ends *)
Inductive ending := EndNeedMore | EndErr (e : ecode) | EndOutOfFuel.
Fixpoint frames_of (calls : nat) (ts : tstate) (fd : bool) (bs : bytes) : list frame * ending :=
  match calls with
  | O => ([], EndOutOfFuel)
  | S k =>
      match read_frame (fuel_for bs) ts fd bs with
      | TFrame f r fd' => let (fs, e) := frames_of k ts fd' r in (f :: fs, e)
      | TNeedMore _ _ => ([], EndNeedMore)
      | TErr e _ _ => ([], EndErr e)
      | TOutOfFuel => ([], EndOutOfFuel)
      end
  end.

Definition all_frames (ts : tstate) (bs : bytes) : list frame * ending :=
  frames_of (S (length bs)) ts false bs.

Lemma frames_of_fuel ts n : forall m fd bs, (length bs < n)%nat -> (length bs < m)%nat ->
  frames_of n ts fd bs = frames_of m ts fd bs.
Proof.
  induction n as [|n IH]; intros [|m] fd bs Hn Hm; [easy..|]. cbn [frames_of].
  destruct (read_frame (fuel_for bs) ts fd bs) as [f r fd'| | |] eqn:E; try reflexivity.
  (* a frame: the rest is shorter *)
  apply read_frame_progress in E. rewrite (IH m fd' r); [reflexivity|lia..].
Qed.

Lemma frames_of_step ts fd bs :
  frames_of (S (length bs)) ts fd bs =
  match read_frame (fuel_for bs) ts fd bs with
  | TFrame f r fd' => let (fs, e) := frames_of (S (length r)) ts fd' r in (f :: fs, e)
  | TNeedMore _ _ => ([], EndNeedMore)
  | TErr e _ _ => ([], EndErr e)
  | TOutOfFuel => ([], EndOutOfFuel)
  end.
Proof.
  cbn [frames_of]. destruct (read_frame (fuel_for bs) ts fd bs) as [f r fd'| | |] eqn:E; try reflexivity.
  apply read_frame_progress in E. rewrite (frames_of_fuel ts _ (S (length r)) fd' r E (Nat.lt_succ_diag_r _)).
  reflexivity.
Qed.

Lemma frames_of_skip_unknown ts fd t p rest : unknown_ok t p = true ->
  frames_of (S (length (unknown_frame t p ++ rest))) ts fd (unknown_frame t p ++ rest)
  = frames_of (S (length rest)) ts fd rest.
Proof.
  intros H. destruct (unknown_ok_inv t p H) as (Hk & Ht & Hp).
  rewrite !frames_of_step, (read_frame_skips_unknown _ _ _ _ _ Hk Ht Hp). reflexivity.
Qed.

Lemma frames_of_known ts fd f rest : frame_wf f = true -> len (fpayload f) <= max_parse_payload ->
  frames_of (S (length (frame_write f ++ rest))) ts fd (frame_write f ++ rest) =
  match validate ts fd f with
  | (fd', None) => let (fs, e) := frames_of (S (length rest)) ts fd' rest in (f :: fs, e)
  | (_, Some e) => ([], EndErr e)
  end.
Proof.
  intros Hwf Hl. rewrite frames_of_step. unfold fuel_for. cbn [read_frame].
  rewrite (frame_read_write f rest Hwf Hl). destruct (validate ts fd f) as [fd' [e|]]; reflexivity.
Qed.

Theorem insertions_invisible ts : forall items fd tail,
  forallb item_ok items = true ->
  frames_of (S (length (enc_items items ++ tail))) ts fd (enc_items items ++ tail)
  = frames_of (S (length (enc_items (filter is_known items) ++ tail))) ts fd
              (enc_items (filter is_known items) ++ tail).
Proof.
  induction items as [|[f|t p] items IH]; intros fd tail Hok; [reflexivity|..].
  all: cbn [forallb item_ok] in Hok; apply andb_prop in Hok as [Hi Hok].
  all: cbn [filter is_known enc_items enc_item]; rewrite <- ?app_assoc.
  - (* a frame stays: both sides deliver it and go on, or end on the same error *)
    apply andb_prop in Hi as [Hwf Hl]. apply N.leb_le in Hl. rewrite !(frames_of_known ts fd f _ Hwf Hl).
    destruct (validate ts fd f) as [fd' [e|]]; [reflexivity|]. rewrite (IH fd' tail Hok). reflexivity.
  - (* an unknown element is skipped on the left and absent on the right *)
    rewrite (frames_of_skip_unknown ts fd t p _ Hi). apply IH, Hok.
Qed.

Theorem read_frame_from_buffer_offset ts fd buf off :
  match read_frame_from_buffer ts fd buf off with
  | BFrame _ o _ => (off < o <= length buf)%nat
  | BNeedMore o _ => o = off
  | BErr _ o _ => o = off
  | BOutOfFuel => False
  end.
Proof.
  unfold read_frame_from_buffer.
  destruct (read_frame (fuel_for (skipn off buf)) ts fd (skipn off buf)) as [f r fd'| | |] eqn:E; auto.
  - apply read_frame_progress in E. rewrite skipn_length in E. lia.
  - exact (read_frame_terminates _ _ _ E).
Qed.
