(* QpackRT.v -- QPACK strings, field lines, field sections and header maps
   round-trip through the encoder and decoder of Model/Qpack.v. *)
From WT.Model Require Import Base Frame Wire Qpack.
From WT.Proofs Require Import BaseP FrameP QpackP HuffmanP.
From Coq Require Import Lia ZifyBool Permutation.

(* one branch of utf8_valid, taken: Hu holds the range tests of the bytes behind the first and, last,
   utf8_valid of the tail [tl] *)
Local Ltac utf8_branch IH Hu tl :=
  rewrite !bytes_ok_cons, (IH tl) by exact (proj2 (andb_prop _ _ Hu)); unfold byte_ok, inr_, cont in *; lia.

(* by the length of the sequence the first byte announces: its bytes are in range by the tests
   they passed, the rest of the string by recursion.  A failed test is forgotten at once: only the
   test that selects the branch bounds the first byte, and negative hypotheses make lia slow. *)
Lemma utf8_is_bytes s : utf8_valid s = true -> bytes_ok s = true.
Proof.
  (* [fix], not [induction]: the recursive calls are on the tail two to four bytes further on *)
  revert s. fix IH 1. intros [|b0 r] Hu; [reflexivity|]. cbn [utf8_valid] in Hu.
  destruct (b0 <? 128) eqn:E.
  { rewrite bytes_ok_cons, (IH r Hu). unfold byte_ok. lia. }
  clear E. destruct (inr_ 194 223 b0) eqn:E.
  { destruct r as [|b1 r1]; [discriminate|]. utf8_branch IH Hu r1. }
  clear E. destruct (b0 =? 224) eqn:E.
  { destruct r as [|b1 [|b2 r2]]; try discriminate. utf8_branch IH Hu r2. }
  clear E. destruct (inr_ 225 236 b0 || inr_ 238 239 b0) eqn:E.
  { destruct r as [|b1 [|b2 r2]]; try discriminate. utf8_branch IH Hu r2. }
  clear E. destruct (b0 =? 237) eqn:E.
  { destruct r as [|b1 [|b2 r2]]; try discriminate. utf8_branch IH Hu r2. }
  clear E. destruct (b0 =? 240) eqn:E.
  { destruct r as [|b1 [|b2 [|b3 r3]]]; try discriminate. utf8_branch IH Hu r3. }
  clear E. destruct (inr_ 241 243 b0) eqn:E.
  { destruct r as [|b1 [|b2 [|b3 r3]]]; try discriminate. utf8_branch IH Hu r3. }
  clear E. destruct (b0 =? 244) eqn:E; [|discriminate].
  destruct r as [|b1 [|b2 [|b3 r3]]]; try discriminate. utf8_branch IH Hu r3.
Qed.

(* what a Rust String is: valid UTF-8 whose length fits usize *)
Definition str_ok (s : bytes) : Prop := utf8_valid s = true /\ len s < two64.

Lemma odd_flag fl (b : bool) : N.odd (fl * 2 + (if b then 1 else 0)) = b.
Proof. rewrite N.add_comm, N.mul_comm, N.odd_add_mul_2. destruct b; reflexivity. Qed.

Lemma dec_enc_str_le n fl s tail : n <= 8 -> fl * 2 + 1 < 2 ^ (8 - n) -> str_ok s ->
  dec_str n (enc_str n fl s ++ tail) = Val (s, tail).
Proof.
  intros Hn Hf [Hu Hl]. unfold enc_str, dec_str.
  set (h := hencode s). set (use_h := (length h <? length s)%nat).
  rewrite <- app_assoc.
  rewrite dec_enc_int; [| exact Hn | destruct use_h; lia | ].
  - (* the flag read back says which of the two was sent *)
    rewrite get_bytes_n_app, odd_flag. destruct use_h eqn:U.
    + subst h. rewrite (huffman_roundtrip s (utf8_is_bytes s Hu)), Hu. reflexivity.
    + rewrite Hu. reflexivity.
  - (* the length fits: Huffman is used only when shorter *)
    destruct use_h eqn:U; [|exact Hl]. apply Nat.ltb_lt in U. unfold len in *. lia.
Qed.

Theorem dec_enc_str n fl s tail :
  In n [1; 2; 3; 4; 5; 6; 7; 8] -> fl * 2 + 1 < 2 ^ (8 - n) -> str_ok s ->
  dec_str n (enc_str n fl s ++ tail) = Val (s, tail).
Proof. intros Hn. apply dec_enc_str_le, width_le_8, Hn. Qed.

Definition fline_eqb (a b : fline) : bool :=
  match a, b with
  | FIndexed, FIndexed | FIndexedPost, FIndexedPost | FLiteralRefName, FLiteralRefName
  | FLiteralPostRefName, FLiteralPostRefName | FLiteralLitName, FLiteralLitName => true
  | _, _ => false
  end.

Lemma fline_eqb_eq a b : fline_eqb a b = true -> a = b.
Proof. destruct a, b; (reflexivity || discriminate). Qed.

(* the first byte of a prefix integer is its flags followed by n bits: if all of those bytes start
   a line of type [t] and have the bit [tb] set, so does the integer *)
Lemma enc_int_line t tb n fl v : n <= 8 -> fl < 2 ^ (8 - n) ->
  forallb (fun w => fline_eqb (field_line_type (fl * 2 ^ n + w)) t && negb (N.land (fl * 2 ^ n + w) tb =? 0))
          (upto (N.to_nat (2 ^ n)) 0) = true ->
  exists b r, enc_int n fl v = b :: r /\ field_line_type b = t /\ (N.land b tb =? 0) = false.
Proof.
  intros Hn Hf S. rewrite enc_int_eq by assumption. eexists _, _. split; [reflexivity|].
  apply forallb_below with (x := N.min v (2 ^ n - 1)) in S; [|lia].
  apply andb_prop in S as [S1 S2]. split; [apply fline_eqb_eq, S1|apply Bool.negb_true_iff, S2].
Qed.

(* the three representations the encoder emits (RFC 9204 4.5.2, 4.5.4, 4.5.6); T = 1 names the
   static table; a literal name has no such bit, 32 is the last bit of its pattern 001 *)
Lemma indexed_head i :
  exists b r, enc_int 6 3 i = b :: r /\ field_line_type b = FIndexed /\ (N.land b 64 =? 0) = false.
Proof. apply enc_int_line; [lia|reflexivity|vm_compute; reflexivity]. Qed.

Lemma refname_head i :
  exists b r, enc_int 4 5 i = b :: r /\ field_line_type b = FLiteralRefName /\ (N.land b 16 =? 0) = false.
Proof. apply enc_int_line; [lia|reflexivity|vm_compute; reflexivity]. Qed.

Lemma enc_str_head k : exists b r, enc_str 3 2 k = b :: r /\ field_line_type b = FLiteralLitName.
Proof.
  unfold enc_str. set (u := (length (hencode k) <? length k)%nat). set (d := if u then hencode k else k).
  (* the flags are 4 or 5, below 2 ^ 5; the eight first bytes are checked for each *)
  destruct (enc_int_line FLiteralLitName 32 3 (2 * 2 + (if u then 1 else 0)) (len d)) as (b & r & E & T & _);
    [lia|destruct u; reflexivity|destruct u; vm_compute; reflexivity|].
  exists b, (r ++ d). rewrite E. split; [reflexivity|exact T].
Qed.

Definition field_ok (kv : bytes * bytes) : Prop := str_ok (fst kv) /\ str_ok (snd kv).

Lemma static_index_fits {i kv} : lookup_field i = Some kv -> i < two64.
Proof. intros H. apply lookup_field_bound in H. unfold two64. lia. Qed.

Lemma dec_field f kv rest m : field_ok kv ->
  dec_fields (S f) (enc_field kv ++ rest) m = dec_fields f rest (hinsert (fst kv) (snd kv) m).
Proof.
  destruct kv as [k v]. intros [Hk Hv]. cbn [fst snd] in *. unfold enc_field.
  pose proof (lookup_index_sound k v) as Hs.
  destruct (lookup_index k v) as [i|i|].
  (* name and value in the table; the name only; neither *)
  - destruct (indexed_head i) as (b & r & E & T & L).
    rewrite E. cbn [app dec_fields]. rewrite T, L, app_comm_cons, <- E.
    rewrite dec_enc_int; [|lia|reflexivity|exact (static_index_fits Hs)].
    cbn [lift]. rewrite Hs. reflexivity.
  - destruct Hs as [v' Hs]. destruct (refname_head i) as (b & r & E & T & L).
    rewrite <- app_assoc, E. cbn [app dec_fields]. rewrite T, L, app_comm_cons, <- E.
    rewrite dec_enc_int; [|lia|reflexivity|exact (static_index_fits Hs)].
    cbn [lift]. rewrite Hs, dec_enc_str_le; [reflexivity|lia|reflexivity|exact Hv].
  - destruct (enc_str_head k) as (b & r & E & T).
    rewrite <- app_assoc, E. cbn [app dec_fields]. rewrite T, app_comm_cons, <- E.
    rewrite dec_enc_str_le; [|lia|reflexivity|exact Hk]. cbn [lift].
    rewrite dec_enc_str_le; [reflexivity|lia|reflexivity|exact Hv].
Qed.

Definition ins (m : hmap) (kv : bytes * bytes) : hmap := hinsert (fst kv) (snd kv) m.

Lemma dec_fields_enc l : forall fuel m, Forall field_ok l -> (length l < fuel)%nat ->
  dec_fields fuel (flat_map enc_field l) m = Val (fold_left ins l m).
Proof.
  induction l as [|kv l IH]; intros fuel m Hok Hf; (destruct fuel as [|f]; [lia|]).
  - reflexivity.
  - cbn [flat_map fold_left]. inversion Hok as [|? ? H1 H2].
    rewrite dec_field by exact H1. apply IH; [exact H2|cbn [length] in Hf; lia].
Qed.

Lemma enc_int_pos n fl v : (0 < length (enc_int n fl v))%nat.
Proof. unfold enc_int. destruct (v <? 2 ^ n - 1); cbn [length]; lia. Qed.

Lemma enc_field_pos kv : (0 < length (enc_field kv))%nat.
Proof.
  destruct kv as [k v]. unfold enc_field, enc_str.
  destruct (lookup_index k v); rewrite ?app_length; repeat apply Nat.lt_lt_add_r; apply enc_int_pos.
Qed.

Lemma flat_map_enc_field_le l : (length l <= length (flat_map enc_field l))%nat.
Proof.
  induction l as [|kv l IH]; [reflexivity|]. cbn [flat_map length]. rewrite app_length.
  pose proof (enc_field_pos kv). lia.
Qed.

(* the [0; 0] of qpack_encode is what Encoder::encode writes first: encode_integer::<8>(0, 0) and
   encode_integer::<7>(0, 0), Required Insert Count and Delta Base (RFC 9204 4.5.1); the decoder
   reads them as two integers and goes on to the field lines *)
Lemma qpack_decode_zero_prefix r : qpack_decode (0 :: 0 :: r) = dec_fields (S (length r)) r [].
Proof. reflexivity. Qed.

Theorem qpack_roundtrip l : Forall field_ok l ->
  qpack_decode (qpack_encode l) = Val (fold_left ins l []).
Proof.
  intros Hok. unfold qpack_encode. cbn [app]. rewrite qpack_decode_zero_prefix.
  apply dec_fields_enc; [exact Hok|]. pose proof (flat_map_enc_field_le l). lia.
Qed.

Lemma fold_ins_distinct l : forall m0, NoDup (map fst (m0 ++ l)) -> fold_left ins l m0 = m0 ++ l.
Proof.
  induction l as [|[k v] l IH]; intros m0 Hnd; [symmetry; apply app_nil_r|].
  cbn [fold_left]. unfold ins at 2. cbn [fst snd].
  rewrite hinsert_fresh, IH, <- app_assoc; [reflexivity|rewrite <- app_assoc; exact Hnd|].
  (* k is not a key of m0 *)
  rewrite map_app in Hnd. apply NoDup_remove_2 in Hnd. intros H. apply Hnd, in_or_app. left. exact H.
Qed.

Lemma hins_perm p l : Permutation (hins p l) (p :: l).
Proof.
  induction l as [|q l IH]; [reflexivity|]. cbn [hins]. destruct (field_leb p q); [reflexivity|].
  rewrite IH. apply perm_swap.
Qed.

Lemma sorted_headers_perm m : Permutation (sorted_headers m) m.
Proof.
  unfold sorted_headers. induction m as [|p m IH]; [reflexivity|]. cbn [fold_right].
  rewrite hins_perm. apply perm_skip. exact IH.
Qed.

Theorem headers_roundtrip m : NoDup (map fst m) -> Forall field_ok m ->
  headers_with_frame (fpayload (headers_generate_frame m)) = Val (sorted_headers m)
  /\ Permutation (sorted_headers m) m
  /\ forall k, hget k (sorted_headers m) = hget k m.
Proof.
  intros Hnd Hok. pose proof (sorted_headers_perm m) as Hp.
  assert (Hnd' : NoDup (map fst (sorted_headers m))).
  { eapply Permutation_NoDup; [apply Permutation_map; symmetry; exact Hp|exact Hnd]. }
  split; [|split; [exact Hp|intros k; apply hget_perm; assumption]].
  unfold headers_with_frame, headers_generate_frame. cbn [fpayload].
  rewrite qpack_roundtrip, fold_ins_distinct; [reflexivity|exact Hnd'|].
  eapply Permutation_Forall; [symmetry; exact Hp|exact Hok].
Qed.

(* the hypotheses of the round trips as boolean predicates, so that they can be evaluated on examples *)
Fixpoint keys_distinct (m : hmap) : bool :=
  match m with
  | [] => true
  | (k, _) :: r => match hget k r with None => keys_distinct r | Some _ => false end
  end.
Definition str_okb (s : bytes) : bool := utf8_valid s && (len s <? two64).
Definition fields_okb (m : hmap) : bool := forallb (fun kv => str_okb (fst kv) && str_okb (snd kv)) m.

Lemma keys_distinct_nodup m : keys_distinct m = true -> NoDup (map fst m).
Proof.
  induction m as [|[k v] m IH]; intros H; [constructor|].
  cbn [keys_distinct] in H. destruct (hget k m) eqn:E; [discriminate|].
  cbn [map fst]. constructor; [apply hget_none_notin; exact E|exact (IH H)].
Qed.

Lemma str_okb_ok s : str_okb s = true -> str_ok s.
Proof. unfold str_okb, str_ok. intros H. apply andb_prop in H as [H1 H2]. apply N.ltb_lt in H2. auto. Qed.

Lemma fields_okb_ok m : fields_okb m = true -> Forall field_ok m.
Proof.
  unfold fields_okb. rewrite forallb_forall, Forall_forall. intros H kv Hin.
  specialize (H kv Hin). apply andb_prop in H as [H1 H2].
  split; apply str_okb_ok; assumption.
Qed.

Corollary headers_roundtrip_b m : keys_distinct m = true -> fields_okb m = true ->
  headers_with_frame (fpayload (headers_generate_frame m)) = Val (sorted_headers m)
  /\ Permutation (sorted_headers m) m
  /\ forall k, hget k (sorted_headers m) = hget k m.
Proof. intros H1 H2. apply headers_roundtrip; [apply keys_distinct_nodup; exact H1|apply fields_okb_ok; exact H2]. Qed.

Corollary qpack_roundtrip_b l : fields_okb l = true -> qpack_decode (qpack_encode l) = Val (fold_left ins l []).
Proof. intros H. apply qpack_roundtrip. apply fields_okb_ok. exact H. Qed.
