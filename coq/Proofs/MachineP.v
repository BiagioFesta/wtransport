(* MachineP.v -- the GetBuffer / GetVarint poll machines keep their progress
   across Pending and, driven to completion, compute a_get_buffer / a_get_varint
   for EVERY schedule of chunk sizes and Pending results. *)
From WT.Model Require Import Base Varint Async.
From WT.Proofs Require Import VarintP AsyncP.
From Coq Require Import Lia.

(* What one poll_read of at most [want] bytes does to the source [s]; [k] bounds the schedule it leaves
   (strictly, after Pending).  The terminal shows only when no data is left, and then [eof_err]'s flag
   matters for [Fin] alone. *)
Definition read_post (want : nat) (s : src) (k : nat) (x : pr * src) : Prop :=
  match x with
  | (PrPending, s') => sdata s' = sdata s /\ sterm s' = sterm s /\ (length (ssched s') < k)%nat
  | (PrData d, s') => sdata s = d ++ sdata s' /\ sterm s' = sterm s /\
                      (length (ssched s') <= k)%nat /\ (1 <= length d <= want)%nat
  | (PrEof, s') => sdata s = [] /\ sdata s' = [] /\ sterm s = Fin
  | (PrErr e, s') => sdata s = [] /\ sdata s' = [] /\ forall first, e = eof_err (sterm s) first
  end.

Lemma deliver_post c want s sch k : (1 <= want)%nat -> (length sch <= k)%nat ->
  read_post want s k (deliver c want s sch).
Proof.
  intros Hw Hk. unfold deliver, read_post. destruct (sdata s) as [|b d].
  - destruct (sterm s); cbn; auto.
  - cbn [sdata sterm ssched]. rewrite firstn_skipn, firstn_length. cbn [length].
    split; [reflexivity|]. split; [reflexivity|]. split; [exact Hk|].
    lia.
Qed.

Lemma poll_read_post want s k : (1 <= want)%nat -> (length (ssched s) <= k)%nat ->
  read_post want s k (poll_read want s).
Proof.
  intros Hw Hk. unfold poll_read.
  destruct (ssched s) as [|[c|] sch]; cbn [length] in Hk; [apply deliver_post; cbn; lia..|].
  cbn. auto.
Qed.

(* A poll machine refines a function of (data, terminal): [got] is the bytes a state holds, [inv] what
   the states in use satisfy, and [f] takes ALL the bytes (held or still in the source) and the terminal
   to the result and the bytes left over. *)
Section Refinement.
Context {St A : Type}.
Context (got : St -> bytes) (inv : St -> Prop) (f : bytes -> term -> A * bytes).

(* [all] is the whole input, [t] the terminal and [k] the length of the schedule, or a bound on it: an
   inner loop starts after some of it has gone *)
Definition post (all : bytes) (t : term) (k : nat) (x : poll A * St * src) : Prop :=
  match x with
  | (Ready a, _, s') => (a, sdata s') = f all t
  | (Pending, st', s') =>
      got st' ++ sdata s' = all /\ sterm s' = t /\ inv st' /\ (length (ssched s') < k)%nat
  end.

Definition poll_refines (step : St -> src -> poll A * St * src) : Prop :=
  forall st s, inv st -> post (got st ++ sdata s) (sterm s) (length (ssched s)) (step st s).

Theorem drive_refines step : poll_refines step ->
  forall fuel st s, inv st -> (length (ssched s) < fuel)%nat ->
  exists s', drive fuel step st s = Some (fst (f (got st ++ sdata s) (sterm s)), s') /\
             sdata s' = snd (f (got st ++ sdata s) (sterm s)).
Proof.
  intros R. induction fuel as [|fuel IH]; intros st s Hi Hf; [lia|].
  cbn [drive]. specialize (R st s Hi).
  destruct (step st s) as [[[|a] st1] s1]; cbn [post] in R.
  - (* Pending: polled again, on a shorter schedule *)
    destruct R as (<- & <- & Hi1 & Hs). apply IH; [exact Hi1|lia].
  - (* Ready *) exists s1. rewrite <- R. auto.
Qed.
End Refinement.
Arguments drive_refines {St A got inv f step}.

Definition gb_inv (n : nat) (got : bytes) : Prop := (length got <= n)%nat.

(* what GetBuffer is to return, as the machine's result type; a_get_buffer never answers AParse,
   that arm is a filler *)
Definition gb_final {E} (n : nat) (data : bytes) (t : term) : (ioerr + bytes) * bytes :=
  match @a_get_buffer E n data t with
  | AOk p r => (inr p, r)
  | AIo e r => (inl e, r)
  | AParse _ r => (inl IoLost, r)
  end.

Lemma gb_poll_post {E} n F : forall got s k,
  gb_inv n got -> (n - length got < F)%nat -> (length (ssched s) <= k)%nat ->
  post id (gb_inv n) (@gb_final E n) (got ++ sdata s) (sterm s) k (gb_poll F n got s).
Proof.
  unfold gb_inv, gb_final.
  induction F as [|F IH]; intros got s k Hl HF Hk; [lia|].
  cbn [gb_poll]. destruct (Nat.ltb_spec (length got) n) as [Hlt|Hge].
  2:{ (* [got] holds its n bytes: Ready with them, the source left as it is *)
      replace n with (length got) by lia. cbn [post]. rewrite a_get_buffer_app. reflexivity. }
  pose proof (poll_read_post (n - length got) s k ltac:(lia) Hk) as R.
  destruct (poll_read (n - length got) s) as [[|d| |e] s1]; cbn [read_post post id] in *.
  - (* Pending: nothing moved *) destruct R as (-> & -> & Hs). auto.
  - (* data: d goes from the source to [got], and the loop goes on *)
    destruct R as (-> & <- & Hs & Hd). rewrite app_assoc.
    (* Hd: d has a byte at least, so less fuel will do, and no more bytes than were missing *)
    apply IH; [rewrite app_length; lia..|exact Hs].
  - (* Eof, [got] too short *) destruct R as (-> & -> & ->). rewrite app_nil_r, a_get_buffer_short by lia.
    destruct got; reflexivity.
  - (* an error, likewise *) destruct R as (-> & -> & He). rewrite app_nil_r, a_get_buffer_short by lia.
    rewrite (He (is_nil got)). reflexivity.
Qed.

Lemma gb_poll_refines {E} n F : (n < F)%nat -> poll_refines id (gb_inv n) (@gb_final E n) (gb_poll F n).
Proof. intros HF got s Hl. apply gb_poll_post; [exact Hl|lia|apply le_n]. Qed.

Theorem get_buffer_machine_refines E n data sch t :
  exists s', drive (S (length sch)) (gb_poll (S n) n) [] (mksrc data sch t) =
             Some (match @a_get_buffer E n data t with
                   | AOk p _ => inr p
                   | AIo e _ => inl e
                   | AParse _ _ => inl IoLost
                   end, s') /\
             sdata s' = match @a_get_buffer E n data t with AOk _ r => r | AIo _ r => r | AParse _ r => r end.
Proof.
  destruct (drive_refines (@gb_poll_refines E n _ (Nat.lt_succ_diag_r n))
                          (S (length sch)) [] (mksrc data sch t))
    as (s' & D1 & D2); [apply Nat.le_0_l|apply Nat.lt_succ_diag_r|].
  exists s'. rewrite D1, D2. unfold gb_final. cbn. destruct (a_get_buffer n data t); auto.
Qed.

Definition gv_map (n : nat) (x : poll (ioerr + bytes) * bytes * src) : poll (ioerr + N) * gv * src :=
  let '(p, got', s') := x in
  (match p with
   | Pending => Pending
   | Ready (inl e) => Ready (inl e)
   | Ready (inr g) => Ready (inr (varint_of g))
   end, mkgv got' n, s').

(* once the first byte is in, the rest of GetVarint is GetBuffer on the same fields *)
Lemma gv_rest_as_gb F : forall n got s, got <> [] ->
  gv_rest F (mkgv got n) s = gv_map n (gb_poll F n got s).
Proof.
  induction F as [|F IH]; intros n got s Hg; [reflexivity|].
  cbn [gv_rest gb_poll gv_got gv_size].
  destruct (length got <? n)%nat; [|reflexivity].
  destruct (poll_read (n - length got) s) as [[|d| |e] s1]; try reflexivity.
  - apply IH. destruct got; [congruence|discriminate].
  - destruct got; [congruence|reflexivity].
Qed.

Definition gv_final (data : bytes) (t : term) : (ioerr + N) * bytes :=
  match @a_get_varint unit data t with
  | AOk v r => (inr v, r)
  | AIo e r => (inl e, r)
  | AParse _ r => (inl IoLost, r)
  end.

Definition gv_inv (st : gv) : Prop :=
  match gv_got st with
  | [] => True
  | b :: _ => gv_size st = parse_size b /\ (length (gv_got st) <= gv_size st)%nat
  end.

(* 9 is the inner fuel gv_poll gives gv_rest (Model/Async.v): one more than the longest varint *)
Lemma gv_rest_post b got s k :
  (length (b :: got) <= parse_size b)%nat -> (length (ssched s) <= k)%nat ->
  post gv_got gv_inv gv_final ((b :: got) ++ sdata s) (sterm s) k
       (gv_rest 9 (mkgv (b :: got) (parse_size b)) s).
Proof.
  intros Hl Hk. rewrite gv_rest_as_gb by discriminate.
  pose proof (parse_size_bounds b) as Hb.
  pose proof (@gb_poll_post unit (parse_size b) 9 (b :: got) s k Hl ltac:(lia) Hk) as P.
  destruct (gb_poll 9 _ (b :: got) s) as [[[|r] got1] s1]; cbn [gv_map post id gv_got app] in *.
  - (* Pending *) destruct P as (P1 & P2 & P3 & P4). split; [exact P1|]. split; [exact P2|]. split; [|exact P4].
    (* gv_inv: the first byte held, if any, is the first byte of the input *)
    destruct got1 as [|b1 g1]; [exact I|]. injection P1 as -> _. split; [reflexivity|exact P3].
  - (* Ready: what a_get_varint makes of GetBuffer's answer *)
    unfold gv_final, gb_final in *. rewrite a_get_varint_cons.
    destruct (a_get_buffer _ _ _); injection P as -> ->; reflexivity.
Qed.

Lemma gv_poll_refines : poll_refines gv_got gv_inv gv_final gv_poll.
Proof.
  intros [[|b got] n] s Hi; unfold gv_poll; cbn [gv_got gv_size gv_inv] in *.
  2:{ destruct Hi as [-> Hl]. apply gv_rest_post; [exact Hl|lia]. }
  pose proof (poll_read_post 1 s _ (le_n 1) (le_n _)) as R.
  destruct (poll_read 1 s) as [[|d| |e] s1]; cbn [read_post post gv_got] in *.
  - (* Pending *) destruct R as (-> & -> & Hs). auto.
  - (* data: exactly one byte, which fixes the size; then the inner loop *)
    destruct R as (-> & <- & Hs & Hd).
    destruct d as [|b [|]]; cbn [length] in Hd; try lia. cbn [hd].
    apply (gv_rest_post b []); [apply parse_size_bounds|exact Hs].
  - destruct R as (-> & -> & ->). reflexivity.
  - destruct R as (-> & -> & He). rewrite (He true). reflexivity.
Qed.

Theorem get_varint_machine_refines data sch t :
  exists s', drive (S (length sch)) gv_poll gv_init (mksrc data sch t) = Some (fst (gv_final data t), s') /\
             sdata s' = snd (gv_final data t).
Proof.
  exact (drive_refines gv_poll_refines _ gv_init (mksrc data sch t) I (Nat.lt_succ_diag_r _)).
Qed.
