(* TermP.v -- the set-once result cell of Model/Term.v (the error mappings of that file are read off
   their definitions in Props/C06.v and Props/C09.v) *)
From WT.Model Require Import Base Term.

Section Cell.
Context {V : Type}.

Lemma cstep_filled (c : cell V) o v : cval c = Some v ->
  cval (fst (cstep c o)) = Some v /\
  match snd (cstep c o) with OGot w => w = v | OSet b => b = false | OGotNone | OPending => False | _ => True end.
Proof.
  (* no branch of cstep writes a cell that holds a value: a set is refused, a get returns v *)
  intros H. destruct o; cbn [cstep]; rewrite ?H. all: destruct (setters c); cbn; auto.
Qed.

Lemma crun_value_stable ops : forall (c : cell V) v, cval c = Some v -> cval (fst (crun c ops)) = Some v.
Proof.
  induction ops as [|o ops IH]; intros c v H; [exact H|].
  cbn [crun]. destruct (cstep_filled c o v H) as [S _]. destruct (cstep c o) as [c1 x].
  specialize (IH c1 v S). destruct (crun c1 ops) as [c2 xs]. exact IH.
Qed.

Theorem get_after_set ops : forall (c : cell V) v, cval c = Some v ->
  Forall (fun x => match x with OGot w => w = v | OSet b => b = false | OGotNone | OPending => False | _ => True end)
         (snd (crun c ops)).
Proof.
  induction ops as [|o ops IH]; intros c v H; [constructor|].
  cbn [crun]. destruct (cstep_filled c o v H) as [S X]. destruct (cstep c o) as [c1 x].
  specialize (IH c1 v S). destruct (crun c1 ops) as [c2 xs]. constructor; assumption.
Qed.

Fixpoint count_accepted (xs : list (cout V)) : nat :=
  match xs with [] => 0 | OSet true :: r => S (count_accepted r) | _ :: r => count_accepted r end.

(* one step of the induction below: the only step that is accepted is a set on an empty cell, and it fills
   the cell *)
Lemma cstep_accepted (c : cell V) o xs :
  (count_accepted xs <= match cval (fst (cstep c o)) with None => 1 | Some _ => 0 end)%nat ->
  (count_accepted (snd (cstep c o) :: xs) <= match cval c with None => 1 | Some _ => 0 end)%nat.
Proof.
  (* every other step leaves the room and adds nothing to the count *)
  destruct c as [[v|] [|n]], o; cbn; auto. exact (le_n_S _ _).
Qed.

Theorem at_most_one_set ops : forall c : cell V,
  (count_accepted (snd (crun c ops)) <= match cval c with None => 1 | Some _ => 0 end)%nat.
Proof.
  induction ops as [|o ops IH]; intros c; [cbn; destruct (cval c); auto|].
  cbn [crun]. pose proof (cstep_accepted c o) as A. destruct (cstep c o) as [c1 x].
  specialize (IH c1). destruct (crun c1 ops) as [c2 xs]. exact (A xs IH).
Qed.

Theorem get_none_only_if_abandoned (c : cell V) : snd (cstep c CGet) = OGotNone -> cval c = None /\ setters c = 0%nat.
Proof.
  cbn [cstep]. destruct (cval c); [discriminate|]. destruct (setters c); [auto|discriminate].
Qed.
End Cell.
