(* TraceP.v -- every observed trace that [orun] accepts satisfies the conservation invariant of the
   hand-off system (what the running driver did is an execution on which C08's statement holds), and an
   accepted trace whose receives are first-in-first-out IS a run of the transition system [step]. *)
From WT.Model Require Import Base Handoff Trace.
From WT.Proofs Require Import HandoffP.
From Coq Require Import Permutation.

Lemma recv_id_preserves_inv {s id s'} : inv s -> recv_id s id = Some s' -> inv s'.
Proof.
  intros Hi H. unfold recv_id in H.
  destruct (mem id (chan s)) eqn:E; [|discriminate]. injection H as <-. apply mem_In in E.
  moved Hi (count_remove1 id (chan s) E).
Qed.

Lemma step_recv_head cap s id c : chan s = id :: c -> step cap s AppRecv = recv_id s id.
Proof.
  intros E. unfold recv_id. cbn [step]. rewrite E. cbn [mem remove1]. rewrite N.eqb_refl. reflexivity.
Qed.

Lemma bind_hs_some o r o' : bind_hs o r = Some o' -> r = Some (hs o').
Proof. destruct r; cbn [bind_hs]; [intros [= <-]; reflexivity|discriminate]. Qed.

Definition olabels (o : ost) (e : oev) : list lbl :=
  match e with
  | OAccept id => [PeerOpen id; WorkerAccept]
  | OPreWt id => [PeerPreamble id]
  | OPreOther id => [PeerAbort id]
  | OSendBegin _ => []
  | OSendEnd id => if mem id (delivered (hs o)) then [] else [TaskSend id]
  | ORecv id => if mem id (chan (hs o)) then [AppRecv] else [TaskSend id; AppRecv]
  | OExit => []
  end.

(* An accepted event is the run of its labels, except that an observed receive takes a NAMED stream out
   of the channel, wherever it stands ([recv_id] is a step only at the head): conservation and trace
   inclusion both rest on this. *)
Theorem ostep_run cap o e o' : ostep cap o e = Some o' ->
  match e with
  | ORecv id => exists s1, run (step (S cap)) (hs o) (if mem id (chan (hs o)) then [] else [TaskSend id]) = Some s1 /\
                           recv_id s1 id = Some (hs o')
  | _ => run (step (S cap)) (hs o) (olabels o e) = Some (hs o')
  end.
Proof.
  intros H. destruct e as [id|id|id|id|id|id|]; cbn [ostep olabels] in *.
  (* OPreWt, OPreOther: one label each *)
  2-3: apply bind_hs_some in H; cbn [run]; rewrite (step_cap_S H); reflexivity.
  - (* OAccept: two labels *) destruct (exited o); [discriminate|].
    destruct (step cap (hs o) (PeerOpen id)) as [s1|] eqn:E1; [|discriminate]. apply bind_hs_some in H.
    cbn [run]. rewrite (step_cap_S E1), (step_cap_S H). reflexivity.
  - (* OSendBegin: no label, the state of the system stays *)
    destruct (mem id (ready (hs o)) && negb (mem id (begun o))); [|discriminate].
    injection H as <-. reflexivity.
  - (* OSendEnd: the send, unless it was placed at the receive already *)
    destruct (mem id (delivered (hs o))); [injection H as <-; reflexivity|].
    destruct (mem id (begun o)); [|discriminate].
    apply bind_hs_some in H. cbn [run]. rewrite H. reflexivity.
  - (* ORecv: of a stream in the channel, or its send is placed here *) destruct (mem id (chan (hs o))).
    + apply bind_hs_some in H. exists (hs o). auto.
    + destruct (mem id (begun o)); [|discriminate].
      destruct (step (S cap) (hs o) (TaskSend id)) as [s1|] eqn:E1; [|discriminate].
      apply bind_hs_some in H. exists s1. cbn [run]. rewrite E1. auto.
  - (* OExit *) injection H as <-. reflexivity.
Qed.

Lemma ostep_preserves_inv {cap o e o'} : inv (hs o) -> ostep cap o e = Some o' -> inv (hs o').
Proof.
  intros Hi H. apply ostep_run in H. destruct e; try exact (run_preserves_inv Hi H).
  (* ORecv: the run, then the named receive *)
  destruct H as (s1 & R & E). exact (recv_id_preserves_inv (run_preserves_inv Hi R) E).
Qed.

Lemma orun_preserves_inv cap es : forall o o', inv (hs o) -> orun cap o es = Some o' -> inv (hs o').
Proof.
  induction es as [|e es IH]; intros o o' Hi H; cbn [orun] in H; [injection H as <-; exact Hi|].
  destruct (ostep cap o e) as [o1|] eqn:E; [|discriminate].
  apply (IH o1 o' (ostep_preserves_inv Hi E) H).
Qed.

Theorem observed_exactly_once cap es o : orun cap oinit es = Some o ->
  NoDup (delivered (hs o)) /\ (forall x, In x (delivered (hs o)) -> In x (opened (hs o))) /\
  NoDup (all_ids (hs o)) /\ Permutation (all_ids (hs o)) (opened (hs o)).
Proof. intros H. exact (inv_exactly_once _ (orun_preserves_inv cap es oinit o inv_init H)). Qed.

(* the observed receive takes the stream at the head of the (model) channel *)
Definition fifo_here (o : ost) (e : oev) : bool :=
  match e with
  | ORecv id =>
      match chan (hs o) with
      | h :: _ => h =? id
      | [] => true          (* send and receive linearised together on an empty channel *)
      end
  | _ => true
  end.

Fixpoint all_labels (cap : nat) (o : ost) (es : list oev) : list lbl :=
  match es with
  | [] => []
  | e :: r => olabels o e ++ match ostep cap o e with Some o' => all_labels cap o' r | None => [] end
  end.
Fixpoint all_fifo (cap : nat) (o : ost) (es : list oev) : bool :=
  match es with
  | [] => true
  | e :: r => fifo_here o e && match ostep cap o e with Some o' => all_fifo cap o' r | None => true end
  end.

Lemma ostep_fifo_run {cap o e o'} :
  ostep cap o e = Some o' -> fifo_here o e = true ->
  run (step (S cap)) (hs o) (olabels o e) = Some (hs o').
Proof.
  intros H F. apply ostep_run in H. destruct e as [| | | | |id|]; try exact H.
  destruct H as (s1 & R & E). cbn [fifo_here olabels] in *.
  destruct (chan (hs o)) as [|h c] eqn:C; cbn [mem] in *.
  - (* an empty channel: the send placed here makes id its only element *)
    cbn [run] in *. destruct (step (S cap) (hs o) (TaskSend id)) as [s2|] eqn:E1; [|discriminate].
    injection R as ->. rewrite (step_recv_head (S cap) s1 id []), E; [reflexivity|].
    rewrite (tasksend_chan E1), C. reflexivity.
  - (* id is the head by F *)
    apply N.eqb_eq in F. subst h. rewrite N.eqb_refl in *. cbn [orb run] in *. injection R as <-.
    rewrite (step_recv_head (S cap) _ _ _ C), E. reflexivity.
Qed.

(* [S cap]: the observation slack of one channel slot.  Every theorem about [run (step _)] applies to
   such a trace. *)
Theorem observed_trace_is_a_run cap es : forall o o',
  orun cap o es = Some o' -> all_fifo cap o es = true ->
  run (step (S cap)) (hs o) (all_labels cap o es) = Some (hs o').
Proof.
  induction es as [|e es IH]; intros o o' H F; cbn [orun all_fifo all_labels] in *.
  - injection H as <-. reflexivity.
  - destruct (ostep cap o e) as [o1|] eqn:E; [|discriminate].
    apply andb_prop in F as [F1 F2].
    rewrite run_app, (ostep_fifo_run E F1). apply IH; assumption.
Qed.

(* the validator is not vacuous: a trace with an overlapping send/receive log order is accepted; a
   double delivery, a delivery of something never accepted and an overfull channel are refused *)
Example trace_accepts :
  option_map (fun o => delivered (hs o))
    (orun 1 oinit [OAccept 2; OAccept 6; OPreWt 6; OSendBegin 6; OPreWt 2; OSendBegin 2; ORecv 6; OSendEnd 6;
                   OSendEnd 2; ORecv 2; OExit]) = Some [6; 2].
Proof. vm_compute. reflexivity. Qed.
Example trace_refuses_double_delivery :
  orun 4 oinit [OAccept 2; OPreWt 2; OSendBegin 2; OSendEnd 2; ORecv 2; ORecv 2] = None.
Proof. vm_compute. reflexivity. Qed.
Example trace_refuses_unknown_stream : orun 4 oinit [OAccept 2; OPreWt 2; ORecv 6] = None.
Proof. vm_compute. reflexivity. Qed.
Example trace_refuses_overfull_channel :
  orun 1 oinit [OAccept 2; OAccept 6; OAccept 10; OPreWt 2; OPreWt 6; OPreWt 10; OSendBegin 2; OSendBegin 6;
                OSendBegin 10; OSendEnd 2; OSendEnd 6; OSendEnd 10] = None.
Proof. vm_compute. reflexivity. Qed.

Theorem observed_accept_never_blocked cap o id :
  exited o = false -> mem id (opened (hs o)) = false -> ostep cap o (OAccept id) <> None.
Proof.
  intros E M. cbn [ostep]. rewrite E. cbn [step]. rewrite M. cbn [bind_hs step quinn_q].
  destruct (quinn_q (hs o)); cbn; discriminate.
Qed.

(* the validator's accept queue is empty between events: PeerOpen is synthesised right before WorkerAccept *)
Theorem observed_preamble_never_blocked cap o id o1 :
  quinn_q (hs o) = [] -> ostep cap o (OAccept id) = Some o1 -> ostep cap o1 (OPreWt id) <> None.
Proof.
  intros Q. cbn [ostep]. destruct (exited o); [discriminate|]. cbn [step].
  destruct (mem id (opened (hs o))); [discriminate|]. cbn [step quinn_q]. rewrite Q. cbn [app bind_hs with_hs].
  intros [= <-]. unfold ostep, with_hs. cbn [hs step waiting].
  rewrite mem_last. discriminate.
Qed.

Theorem settled_iff_no_send_enabled cap o :
  settled cap o = true <-> forall id, In id (ready (hs o)) -> step cap (hs o) (TaskSend id) = None.
Proof.
  unfold settled. destruct (ready (hs o)) as [|x r] eqn:R.
  - split; [intros _ id []|reflexivity].
  - rewrite Nat.leb_le. split.
    + intros H id _. apply send_disabled_iff. auto.
    + (* x is ready and its send disabled: for want of room *)
      intros H. apply (send_disabled_iff cap (hs o) x).
      * apply H. left. reflexivity.
      * rewrite R. left. reflexivity.
Qed.
