(* PipeP.v -- C01 end to end: for EVERY partition of the payload into writes, every partial-write size,
   every flow-control window, every arrival pattern and every sequence of read-buffer sizes, the reads
   return exactly the written bytes, in order, and end-of-stream only once everything was read. *)
From WT.Model Require Import Base Pipe.

(* Nothing is lost between the two ends; the receiving transport knows the end only once the sender has
   finished and nothing is under way; a read reports it only once the buffer is drained as well. *)
Definition pinv (s : pst) : Prop :=
  written s = got s ++ rbuf s ++ wire s ++ unsent s /\
  (fin_arrived s = true -> finished s = true /\ wire s = [] /\ unsent s = []) /\
  (eof s = true -> fin_arrived s = true /\ rbuf s = []).

Lemma pinv_init pre : pinv (pinit pre).
Proof. repeat split; discriminate. Qed.

Lemma firstn_skipn_app {A} n (l : list A) : firstn n l ++ skipn n l = l.
Proof. apply firstn_skipn. Qed.

Lemma both_nil {A B} (a : list A) (b : list B) (c : bool) :
  match a, b with [], [] => c | _, _ => false end = true -> c = true /\ a = [] /\ b = [].
Proof. destruct a, b; try discriminate. auto. Qed.

(* Once [fin_arrived] holds the sending side is finished and empty, so a write is refused and a take or a
   delivery moves nothing; once [eof] holds the buffer is empty as well, so a read returns nothing more. *)
Lemma pstep_preserves_pinv w s o : pinv s -> pinv (fst (pstep w s o)).
Proof.
  destruct s as [us wi rb gt wr fi fa eo]. unfold pinv.
  destruct o as [buf|k|k|n|]; cbn -[firstn skipn]; intros (Hc & Hf & He).
  - (* PWrite: refused once finished *) destruct fi; cbn; [auto|]. split; [|split].
    + rewrite Hc, <- !app_assoc. reflexivity.
    + intros A. destruct (Hf A). discriminate.
    + exact He.
  - (* PTake *) split; [|split].
    + rewrite <- app_assoc, firstn_skipn. exact Hc.
    + intros A. destruct (Hf A) as (Fi & -> & ->). rewrite firstn_nil, skipn_nil. auto.
    + exact He.
  - (* PDeliver *) split; [|split].
    + rewrite <- app_assoc, (app_assoc (firstn k wi)), firstn_skipn. exact Hc.
    + intros A. apply Bool.orb_true_iff in A as [A|A].
      * (* the end was known before *) destruct (Hf A) as (Fi & -> & U). rewrite skipn_nil. auto.
      * (* it is now: nothing is left under way behind a finished sender *)
        exact (both_nil _ _ _ A).
    + intros E. destruct (He E) as (A & ->). destruct (Hf A) as (_ & -> & _). rewrite A, firstn_nil. auto.
  - (* PRead *) destruct rb as [|b r].
    + (* nothing buffered: end of stream, or not yet *) destruct fa; cbn; auto.
    + (* a read of no bytes, or of some *) destruct n as [|n]; cbn -[firstn skipn]; [auto|]. split; [|split].
      * rewrite <- app_assoc, (app_assoc (firstn _ _)), firstn_skipn. exact Hc.
      * exact Hf.
      * intros E. destruct (He E). discriminate.
  - (* PFinish *) split; [|split].
    + exact Hc.
    + intros A. apply Bool.orb_true_iff in A as [A|A].
      * destruct (Hf A) as (? & ? & ?). auto.
      * apply both_nil in A as (? & ? & ?). auto.
    + intros E. destruct (He E) as (-> & R). auto.
Qed.

(* the bytes the sending application's accepted write calls carried, in order *)
Fixpoint app_writes (fin : bool) (ops : list pop) : bytes :=
  match ops with
  | [] => []
  | PWrite b :: r => if fin then app_writes fin r else b ++ app_writes fin r
  | PFinish :: r => app_writes true r
  | _ :: r => app_writes fin r
  end.

(* A step moves what it reads from the outputs still to come into [got], and what it accepts from the
   operations still to come into [written]: both sums are constant along a run. *)
Lemma pstep_log w s o :
  let (s', x) := pstep w s o in
  (forall xs, got s' ++ read_data xs = got s ++ read_data (x :: xs)) /\
  (forall r, written s' ++ app_writes (finished s') r = written s ++ app_writes (finished s) (o :: r)).
Proof.
  (* [pstep] branches further on a write (refused after finish) and on a read: nothing buffered, at the end of
     the stream or before it; a read of no bytes, or of some *)
  destruct o as [buf|k|k|n|]; cbn [pstep];
    [destruct (finished s) eqn:F| | |destruct (rbuf s); [destruct (fin_arrived s)|destruct n]|].
  (* on every branch both sides compute to the same concatenation, up to association *)
  all: cbn [got written finished read_data app_writes]; rewrite ?F.
  all: split; intros; rewrite <- ?app_assoc; reflexivity.
Qed.

Theorem prun_spec w ops : forall s, pinv s ->
  let (s', xs) := prun w s ops in
  pinv s' /\ got s' = got s ++ read_data xs /\ written s' = written s ++ app_writes (finished s) ops.
Proof.
  induction ops as [|o ops IH]; intros s H; cbn [prun]; [cbn [read_data app_writes]; rewrite !app_nil_r; auto|].
  pose proof (pstep_preserves_pinv w s o H) as H1. pose proof (pstep_log w s o) as L.
  destruct (pstep w s o) as [s1 x]. destruct L as [G W]. specialize (IH s1 H1).
  destruct (prun w s1 ops) as [s2 xs]. destruct IH as (H2 & -> & ->). exact (conj H2 (conj (G xs) (W ops))).
Qed.

Lemma prun_init w pre ops :
  let r := prun w (pinit pre) ops in
  pinv (fst r) /\ got (fst r) = read_data (snd r) /\ written (fst r) = pre ++ app_writes false ops.
Proof. cbn zeta. pose proof (prun_spec w ops (pinit pre) (pinv_init pre)) as H. destruct (prun w (pinit pre) ops). exact H. Qed.

Theorem pipe_eof_complete w pre ops :
  eof (fst (prun w (pinit pre) ops)) = true ->
  read_data (snd (prun w (pinit pre) ops)) = pre ++ app_writes false ops /\
  finished (fst (prun w (pinit pre) ops)) = true.
Proof.
  destruct (prun_init w pre ops) as ((Hc & Hf & He) & G & W). intros E.
  destruct (He E) as (A & R). destruct (Hf A) as (Fi & Wi & U).
  rewrite <- G, <- W, Hc, R, Wi, U, !app_nil_r. auto.
Qed.

Theorem pipe_no_early_eof w pre ops :
  let s := fst (prun w (pinit pre) ops) in
  eof s = true -> rbuf s = [] /\ wire s = [] /\ unsent s = [].
Proof.
  destruct (prun_init w pre ops) as ((_ & Hf & He) & _). cbn zeta. intros E.
  destruct (He E) as (A & R). destruct (Hf A) as (_ & Wi & U). auto.
Qed.
