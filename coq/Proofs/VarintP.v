(* VarintP.v -- Model/Varint.v: big-endian bytes, the four sizes, the round trip get_enc, and what a
   successful read says of its input (get_varint_some); the rest are corollaries of these *)
From WT.Model Require Import Base Varint.
From WT.Proofs Require Import BaseP.
From Coq Require Import Lia.

Lemma be_length n : forall v, length (be n v) = n.
Proof.
  induction n as [|k IH]; intros v; cbn [be]; [reflexivity|].
  rewrite app_length, IH. cbn. lia.
Qed.

Lemma be_bytes_ok n : forall v, bytes_ok (be n v) = true.
Proof.
  induction n as [|k IH]; intros v; cbn [be]; [reflexivity|].
  rewrite bytes_ok_app, IH. cbn [bytes_ok forallb andb]. unfold byte_ok.
  rewrite Bool.andb_true_r. apply N.ltb_lt, N.mod_lt. lia.
Qed.

Lemma be_msb k : forall v, be (S k) v = (v / 256 ^ N.of_nat k) mod 256 :: be k v.
Proof.
  induction k as [|k IH]; intros v.
  - cbn [be app]. change (N.of_nat 0) with 0. rewrite N.pow_0_r, N.div_1_r. reflexivity.
  - change (be (S (S k)) v) with (be (S k) (v / 256) ++ [v mod 256]). rewrite IH.
    rewrite Nat2N.inj_succ, N.pow_succ_r', N.div_div by (try apply N.pow_nonzero; discriminate).
    reflexivity.
Qed.

Lemma unbe_acc_shift l : forall acc, unbe_acc acc l = acc * 256 ^ N.of_nat (length l) + unbe l.
Proof.
  unfold unbe.
  induction l as [|x l IH]; intros acc.
  - cbn [unbe_acc length]. change (N.of_nat 0) with 0. rewrite N.pow_0_r. lia.
  - cbn [unbe_acc length]. rewrite IH. rewrite (IH (0 * 256 + x)).
    rewrite Nat2N.inj_succ, N.pow_succ_r'. lia.
Qed.

Lemma unbe_cons b l : unbe (b :: l) = b * 256 ^ N.of_nat (length l) + unbe l.
Proof. unfold unbe at 1. cbn [unbe_acc]. apply unbe_acc_shift. Qed.

Lemma unbe_be n : forall v, unbe (be n v) = v mod 256 ^ N.of_nat n.
Proof.
  induction n as [|k IH]; intros v.
  - change (N.of_nat 0) with 0. rewrite N.pow_0_r, N.mod_1_r. reflexivity.
  - rewrite be_msb, unbe_cons, be_length, IH, Nat2N.inj_succ, N.pow_succ_r'.
    rewrite (N.mul_comm 256), N.mod_mul_r by (try apply N.pow_nonzero; discriminate).
    rewrite N.mul_comm. apply N.add_comm.
Qed.

(* in x * p + y with y < p, taking mod (c * p) touches the leading digit x only *)
Lemma mod_msb x y p c : p <> 0 -> c <> 0 -> y < p -> (x * p + y) mod (c * p) = x mod c * p + y.
Proof.
  intros Hp Hc Hy. rewrite (N.mul_comm c), N.mod_mul_r, N.div_add_l, (N.div_small y), N.add_0_r by assumption.
  rewrite (N.add_comm (x * p)), N.mod_add, (N.mod_small y) by assumption. lia.
Qed.

Lemma parse_size_cases b : In (parse_size b) [1%nat; 2%nat; 4%nat; 8%nat].
Proof.
  unfold parse_size. destruct (N.shiftr b 6) as [|p]; cbn; auto 10.
  destruct p as [p|p|]; cbn; auto 10. destruct p; cbn; auto 10.
Qed.

Lemma vsize_cases v : In (vsize v) [1%nat; 2%nat; 4%nat; 8%nat].
Proof.
  unfold vsize. destruct (v <=? 63); [cbn; auto|].
  destruct (v <=? 16383); [cbn; auto|]. destruct (v <=? 1073741823); cbn; auto.
Qed.

Lemma parse_size_bounds b : (1 <= parse_size b <= 8)%nat.
Proof. pose proof (parse_size_cases b) as H. cbn [In] in H. lia. Qed.

Lemma vsize_S v : exists k, vsize v = S k.
Proof. destruct (vsize_cases v) as [<-|[<-|[<-|[<-|[]]]]]; eauto. Qed.

(* what n bytes can hold once the two tag bits are taken off *)
Definition vbound (n : nat) : N := 2 ^ (8 * N.of_nat n - 2).

Lemma vbound_S k : vbound (S k) = 64 * 256 ^ N.of_nat k.
Proof.
  unfold vbound. replace (8 * N.of_nat (S k) - 2) with (6 + 8 * N.of_nat k) by lia.
  rewrite N.pow_add_r, N.pow_mul_r. reflexivity.
Qed.

Lemma vbound_max n : (n <= 8)%nat -> vbound n <= two62.
Proof. intros H. change two62 with (2 ^ 62). apply N.pow_le_mono_r; lia. Qed.

Lemma vmask_mod x n : N.land x (vmask n) = x mod vbound n.
Proof. apply N.land_ones. Qed.

Lemma vbound_vals : vbound 1 = 64 /\ vbound 2 = 16384 /\ vbound 4 = 1073741824 /\ vbound 8 = two62.
Proof. repeat split. Qed.

Lemma vsize_bound v : v <= varint_max -> v < vbound (vsize v).
Proof.
  unfold vsize. intros H. pose proof vbound_vals as B. assert (M : varint_max < two62) by reflexivity.
  destruct (N.leb_spec v 63); [lia|].
  destruct (N.leb_spec v 16383); [lia|].
  destruct (N.leb_spec v 1073741823); lia.
Qed.

Theorem vsize_minimal v n : In n [1%nat; 2%nat; 4%nat; 8%nat] -> v < vbound n -> (vsize v <= n)%nat.
Proof.
  unfold vsize. pose proof vbound_vals as B. intros [<-|[<-|[<-|[<-|[]]]]] Hv.
  all: destruct (N.leb_spec v 63); [lia|].
  all: destruct (N.leb_spec v 16383); [lia|].
  all: destruct (N.leb_spec v 1073741823); lia.
Qed.

Lemma tag_byte b n : b < 64 -> In n [1%nat; 2%nat; 4%nat; 8%nat] ->
  N.lor b (vtag n) = b + vtag n /\ parse_size (b + vtag n) = n /\ (b + vtag n) mod 64 = b.
Proof.
  (* by evaluation on the 64 values of b and the four sizes: the three facts as one boolean *)
  intros Hb Hn.
  enough (S : (N.lor b (vtag n) =? b + vtag n) && Nat.eqb (parse_size (b + vtag n)) n
              && ((b + vtag n) mod 64 =? b) = true).
  { rewrite !Bool.andb_true_iff, !N.eqb_eq, Nat.eqb_eq in S. tauto. }
  revert n Hn. apply forallb_forall. revert b Hb. apply (forallb_below _ 64). vm_compute. reflexivity.
Qed.

Theorem enc_length v : length (enc v) = vsize v.
Proof.
  unfold enc. pose proof (be_length (vsize v) v) as H.
  destruct (be (vsize v) v); exact H.
Qed.

Lemma enc_app_pos v r : (0 < length (enc v ++ r))%nat.
Proof. rewrite app_length, enc_length. destruct (vsize_S v) as [k ->]. apply Nat.lt_0_succ. Qed.

Lemma get_varint_whole b t q : length (b :: t) = parse_size b ->
  get_varint ((b :: t) ++ q) = Some (unbe (b :: t) mod vbound (parse_size b), q).
Proof.
  intros H. unfold get_varint. cbn [app]. change (b :: t ++ q) with ((b :: t) ++ q).
  rewrite (proj2 (Nat.ltb_ge _ _)) by (rewrite app_length; lia).
  rewrite (firstn_app_exact _ _ _ H), (skipn_app_exact _ _ _ H), vmask_mod. reflexivity.
Qed.

Theorem get_enc v r : v <= varint_max -> get_varint (enc v ++ r) = Some (v, r).
Proof.
  (* with p = 256 ^ k: v = (v / p) * p + v mod p and v / p < 64; the first byte is v / p plus
     the tag, the other k bytes are v mod p *)
  intros Hv. destruct (vsize_S v) as [k Hk].
  pose proof (vsize_bound v Hv) as Hb. rewrite Hk, vbound_S in Hb.
  set (p := 256 ^ N.of_nat k) in *.
  assert (Hp : p <> 0) by (apply N.pow_nonzero; lia).
  assert (Hq : v / p < 64) by (apply N.div_lt_upper_bound; lia).
  destruct (tag_byte _ (S k) Hq) as (L & P & M); [rewrite <- Hk; apply vsize_cases|].
  assert (Hs : enc v = (v / p + vtag (S k)) :: be k v).
  { unfold enc. rewrite Hk, be_msb. fold p.
    rewrite (N.mod_small (v / p)), L by (apply (N.lt_trans _ _ _ Hq); reflexivity). reflexivity. }
  rewrite Hs, get_varint_whole by (cbn [length]; rewrite be_length, P; reflexivity).
  rewrite P, unbe_cons, be_length, unbe_be, vbound_S. fold p.
  (* the tag, a multiple of 64, falls away under mod (64 * p) *)
  rewrite mod_msb, M, N.mul_comm, <- N.div_mod' by (try apply N.mod_lt; (exact Hp || discriminate)).
  reflexivity.
Qed.

Theorem get_varint_some {bs v r} : get_varint bs = Some (v, r) ->
  exists p, bs = p ++ r /\ p <> [] /\ (forall q, get_varint (p ++ q) = Some (v, q)) /\
            length p = parse_size (hd 0 bs) /\ v < vbound (length p).
Proof.
  unfold get_varint at 1. destruct bs as [|b t]; [discriminate|].
  destruct (Nat.ltb_spec (length (b :: t)) (parse_size b)) as [|Hl]; [discriminate|].
  intros [= <- <-]. rewrite vmask_mod.
  exists (firstn (parse_size b) (b :: t)). rewrite (firstn_length_le _ Hl). cbn [hd].
  pose proof (parse_size_bounds b) as Hn. destruct (parse_size b) as [|k] eqn:Hk; [lia|].
  split; [symmetry; apply firstn_skipn|]. cbn [firstn]. split; [discriminate|]. rewrite <- Hk. split.
  - intros q. apply get_varint_whole. cbn [length] in *. rewrite firstn_length_le; lia.
  - split; [reflexivity|apply N.mod_lt, N.pow_nonzero; lia].
Qed.

Lemma get_varint_suffix {bs v r} : get_varint bs = Some (v, r) -> exists p, bs = p ++ r /\ p <> [].
Proof. intros H. destruct (get_varint_some H) as (p & H1 & H2 & _). eauto. Qed.

Lemma get_varint_ext {p} q {v r} : get_varint p = Some (v, r) -> get_varint (p ++ q) = Some (v, r ++ q).
Proof.
  intros H. destruct (get_varint_some H) as (p' & -> & _ & S & _). rewrite <- app_assoc. apply S.
Qed.

Corollary get_varint_range bs v r : get_varint bs = Some (v, r) -> v <= varint_max.
Proof.
  (* v < vbound n <= 2^62 for a size n <= 8 *)
  intros H. destruct (get_varint_some H) as (p & _ & _ & _ & Hn & Hv).
  rewrite Hn in Hv. apply (N.lt_le_pred v two62), (N.lt_le_trans _ _ _ Hv), vbound_max, parse_size_bounds.
Qed.

Corollary get_varint_minimal bs v r : get_varint bs = Some (v, r) ->
  (vsize v <= length bs - length r)%nat.
Proof.
  intros H. destruct (get_varint_some H) as (p & Hp & _ & _ & Hn & Hv).
  rewrite Hn in Hv. pose proof (vsize_minimal v _ (parse_size_cases (hd 0 bs)) Hv). rewrite Hp, app_length. lia.
Qed.

(* no proper prefix of what a read consumed completes: completed on p1, the read would come out the same on
   the whole input and leave p2 as well *)
Corollary get_varint_needs_all c p1 p2 r v : c = p1 ++ p2 -> get_varint (c ++ r) = Some (v, r) -> p2 <> [] ->
  get_varint p1 = None.
Proof.
  intros -> G Hq. destruct (get_varint p1) as [[w r']|] eqn:E; [|reflexivity]. rewrite <- app_assoc in G.
  rewrite (get_varint_ext (p2 ++ r) E) in G. injection G as _ G. destruct (Hq (app_inv_tail_nil G)).
Qed.

Theorem get_varint_prefix_none v p q : v <= varint_max -> enc v = p ++ q -> q <> [] ->
  get_varint p = None.
Proof. intros Hv He. exact (get_varint_needs_all _ p q [] v He (get_enc v [] Hv)). Qed.

Lemma tag_byte_ok b n : b < 256 -> In n [1%nat; 2%nat; 4%nat; 8%nat] -> byte_ok (N.lor b (vtag n)) = true.
Proof.
  intros Hb. revert n. apply forallb_forall. revert b Hb. apply (forallb_below _ 256). vm_compute. reflexivity.
Qed.

Lemma enc_bytes_ok v : bytes_ok (enc v) = true.
Proof.
  unfold enc. destruct (vsize_S v) as [k Hk].
  rewrite Hk, be_msb, bytes_ok_cons, be_bytes_ok, Bool.andb_true_r.
  apply tag_byte_ok; [apply N.mod_lt; lia|rewrite <- Hk; apply vsize_cases].
Qed.
