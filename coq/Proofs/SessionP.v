(* SessionP.v -- admission predicates for requests and responses (C18, C02) *)
From WT.Model Require Import Base Qpack Session.
From WT.Proofs Require Import BaseP QpackP.
From Coq Require Import Lia.

Definition has (k v : bytes) (h : hmap) : Prop := hget k h = Some v.
Definition present (k : bytes) (h : hmap) : Prop := exists v, hget k h = Some v.

Theorem request_try_from_spec h :
  let admitted := has k_method v_connect h /\ has k_scheme v_https h /\ has k_protocol v_webtransport h /\
                  present k_authority h /\ present k_path h in
  match request_try_from h with
  | inr r => r = h /\ admitted
  | inl e => ~ admitted /\
             match e with HMethodNotConnect => exists m, hget k_method h = Some m /\ m <> v_connect | _ => True end
  end.
Proof.
  unfold request_try_from, has, present.
  (* the checks in the order of the code, one per line: where a check fails, the conjunct of [admitted] it
     tests is false, and only HMethodNotConnect promises something about the error *)
  destruct (hget k_method h) as [m|]; [|split; [intros (H & _); discriminate|exact I]].
  destruct (list_eqb_spec m v_connect) as [->|N]; cbn [negb]; [|split; [intros (H & _); congruence|eauto]].
  destruct (hget k_scheme h) as [s|]; [|split; [intros (_ & H & _); discriminate|exact I]].
  destruct (list_eqb_spec s v_https) as [->|N]; cbn [negb]; [|split; [intros (_ & H & _); congruence|exact I]].
  destruct (hget k_protocol h) as [p|]; [|split; [intros (_ & _ & H & _); discriminate|exact I]].
  destruct (list_eqb_spec p v_webtransport) as [->|N]; cbn [negb]; [|split; [intros (_ & _ & H & _); congruence|exact I]].
  destruct (hget k_authority h); [|split; [intros (_ & _ & _ & [a H] & _); discriminate|exact I]].
  destruct (hget k_path h); [eauto 10|split; [intros (_ & _ & _ & _ & [a H]); discriminate|exact I]].
Qed.

(* a request is admitted iff it is an extended CONNECT for webtransport over https with authority and
   path present *)
Theorem request_admitted_iff h :
  (exists r, request_try_from h = inr r) <->
  (has k_method v_connect h /\ has k_scheme v_https h /\ has k_protocol v_webtransport h /\
   present k_authority h /\ present k_path h).
Proof.
  pose proof (request_try_from_spec h) as S. cbv zeta in S. destruct (request_try_from h) as [e|r].
  - split; [intros [r H]; discriminate|intros A; destruct (proj1 S A)].
  - split; [intros _; exact (proj2 S)|eauto].
Qed.

Theorem insert_preserves_reserved k v req req' r :
  request_insert k v req = Some req' -> In r reserved_headers -> hget r req' = hget r req.
Proof.
  unfold request_insert. destruct (is_reserved k) eqn:E; [discriminate|]. intros [= <-] Hin.
  apply hget_hinsert_other. intros ->.
  unfold is_reserved in E. assert (existsb (list_eqb k) reserved_headers = true); [|congruence].
  apply existsb_exists. exists k. split; [exact Hin|apply list_eqb_refl].
Qed.

Theorem request_new_fields a p :
  hget k_method (request_new a p) = Some v_connect /\ hget k_scheme (request_new a p) = Some v_https /\
  hget k_protocol (request_new a p) = Some v_webtransport /\
  hget k_authority (request_new a p) = Some a /\ hget k_path (request_new a p) = Some p /\
  length (request_new a p) = 5%nat.
Proof. repeat split; reflexivity. Qed.

Theorem response_legacy_refuted :
  exists h c, response_try_from_legacy h = inr c /\ ~ (100 <= c <= 599).
Proof. exists [(k_status, [57; 57; 57])], 999. split; [reflexivity|lia]. Qed.
