(* TlsP.v -- Model/Tls.v: the pinning decision table (C10), Base64 and the two digest
   formats read back what they wrote (C19), the idle timeout (C20) *)
From WT.Model Require Import Base Ids Tls.
From WT.Proofs Require Import BaseP.
From Coq Require Import Lia ZifyBool ZifyN.

(* the rows in the order of the code's tests *)
Theorem pin_verify_spec c now h :
  match pin_verify c now h with
  | PinBadEncoding => c_parse_ok c = false
  | PinNotValidYet => now < c_nb c
  | PinExpired => c_na c < now
  | PinUnknownIssuer => max_validity < c_na c - c_nb c \/ c_is_ec c = false \/ c_is_p256 c = false \/ h = false
  | PinOk => c_parse_ok c = true /\ c_nb c <= now <= c_na c /\ c_na c - c_nb c <= max_validity /\
             c_is_ec c = true /\ c_is_p256 c = true /\ h = true
  end.
Proof.
  unfold pin_verify.
  destruct (c_parse_ok c); cbn [negb]; [|reflexivity].
  destruct (N.ltb_spec now (c_nb c)); [assumption|].
  destruct (N.ltb_spec (c_na c) now); [assumption|].
  (* the validity test.  True: na <> nb, and nb <= now <= na, so nb < na and it is the window that failed:
     max < na - nb.  False: na = nb (the single instant of the repair) or the window is short enough;
     either way na - nb <= max, which the last line needs. *)
  destruct (negb (c_na c =? c_nb c) && negb ((c_nb c <? c_na c) && (c_na c - c_nb c <=? max_validity))) eqn:E;
    [left; lia|].
  destruct (c_is_ec c); cbn [negb]; [|auto].
  destruct (c_is_p256 c); cbn [negb]; [|auto].
  (* PinOk: the instant is within the period by the two tests passed, the period within the window by E *)
  destruct h; [|auto]. split; [reflexivity|]. split; [lia|]. split; [lia|]. auto.
Qed.

Theorem pin_accepts_iff c now h :
  pin_verify c now h = PinOk <->
  (c_parse_ok c = true /\ c_nb c <= now <= c_na c /\ c_na c - c_nb c <= max_validity /\
   c_is_ec c = true /\ c_is_p256 c = true /\ h = true).
Proof.
  pose proof (pin_verify_spec c now h) as S. split.
  - intros E. rewrite E in S. exact S.
  - (* every other verdict's reason is false; the boolean conditions go into the table first, lia is slow
       with them in the context *)
    intros (P & N1 & V & E & C & ->). rewrite P, E, C in S. clear P E C.
    destruct (pin_verify c now true); [reflexivity|exfalso; lia..].
Qed.

Theorem idle_accept_spec secs nanos :
  (forall ms, idle_accept secs nanos = Some ms -> ms = idle_ms secs nanos /\ ms < two62) /\
  (idle_accept secs nanos = None <-> two62 <= idle_ms secs nanos).
Proof.
  unfold idle_accept. destruct (N.ltb_spec (idle_ms secs nanos) two62).
  - split; [intros ms [= <-]; auto|split; [discriminate|lia]].
  - split; [discriminate|tauto].
Qed.

Lemma b64_val_char v : v < 64 -> b64_val (b64_char v) = Some v.
Proof.
  intros H. apply opt_eqb_some. revert v H.
  apply (forallb_below (fun v => opt_eqb N.eqb (b64_val (b64_char v)) (Some v)) 64). vm_compute. reflexivity.
Qed.

(* 61 is '=', the pad character *)
Lemma b64_char_not_pad {v} : v < 64 -> b64_char v =? 61 = false.
Proof. intros H. apply N.eqb_neq. intros E. apply b64_val_char in H. rewrite E in H. discriminate. Qed.

Lemma b64_decode_group {fuel a b c d r} : d =? 61 = false ->
  b64_decode (S fuel) (a :: b :: c :: d :: r) =
  match b64_group a b c d, b64_decode fuel r with Some g, Some rest => Some (g ++ rest) | _, _ => None end.
Proof. intros H. cbn [b64_decode]. rewrite H, Bool.andb_false_r. destruct r; reflexivity. Qed.

(* The arithmetic of a 24-bit group.  Its sextets are base-64 digits: the leading two, three, four of them
   denote n / 4096, n / 64, n, which is what the decoder's three branches rebuild. *)
Lemma b64_sextets n : n < 16777216 ->
  let x := n / 262144 in let y := (n / 4096) mod 64 in let z := (n / 64) mod 64 in let w := n mod 64 in
  (x < 64 /\ y < 64 /\ z < 64 /\ w < 64) /\
  x * 64 + y = n / 4096 /\ x * 4096 + y * 64 + z = n / 64 /\ x * 262144 + y * 4096 + z * 64 + w = n.
Proof.
  intros H. cbv zeta.
  pose proof (N.div_mod n 64) as E1. pose proof (N.div_mod (n / 64) 64) as E2. pose proof (N.div_mod (n / 4096) 64) as E3.
  rewrite N.div_div in E2, E3 by discriminate. change (64 * 64) with 4096 in E2. change (4096 * 64) with 262144 in E3.
  pose proof (N.mod_lt n 64) as W. pose proof (N.mod_lt (n / 64) 64) as Z. pose proof (N.mod_lt (n / 4096) 64) as Y.
  (* linear from here: as variables, so that lia does not bring in the division equations *)
  revert E1 E2 E3 W Z Y.
  generalize (n / 262144), ((n / 4096) mod 64), (n / 4096), ((n / 64) mod 64), (n / 64), (n mod 64). lia.
Qed.

(* the octets the decoder takes from those numbers are the bytes that went in; one conjunct at a time:
   lia then meets only that conjunct's quotients *)
Lemma b64_octets a b c n : a < 256 -> b < 256 -> c < 256 -> n = a * 65536 + b * 256 + c ->
  n < 16777216 /\ n / 65536 = a /\ (n / 256) mod 256 = b /\ n mod 256 = c.
Proof. intros. repeat split; lia. Qed.
Lemma b64_octets2 a b m : b < 256 -> m = (a * 65536 + b * 256) / 64 -> m / 1024 = a /\ (m / 4) mod 256 = b.
Proof. intros Hb ->. replace (_ / 64) with (a * 1024 + b * 4) by lia. split; lia. Qed.
Lemma b64_octets1 a x y : a < 256 -> x * 64 + y = a * 65536 / 4096 -> (x * 4 + y / 16) mod 256 = a.
Proof. intros Ha. replace (a * 65536 / 4096) with (a * 16); lia. Qed.

Theorem b64_roundtrip : forall bs fuel, bytes_ok bs = true -> (length bs < fuel)%nat ->
  b64_decode fuel (b64_encode bs) = Some bs.
Proof.
  intros bs fuel. revert bs. induction fuel as [|fuel IH]; intros bs Hok Hf; [lia|].
  destruct bs as [|a [|b [|c r]]]; [reflexivity|..]; apply bytes_ok_cons_inv in Hok as [Ha Hok].
  - (* one byte left *) destruct (b64_sextets (a * 65536)) as ((X & Y & _) & E & _); [lia|].
    cbn [b64_encode b64_decode]. rewrite !N.eqb_refl. cbn [andb].
    rewrite !b64_val_char by assumption. rewrite (b64_octets1 a _ _ Ha E). reflexivity.
  - (* two bytes left *) apply bytes_ok_cons_inv in Hok as [Hb _].
    destruct (b64_sextets (a * 65536 + b * 256)) as ((X & Y & Z & _) & _ & E & _); [lia|].
    cbn [b64_encode b64_decode]. rewrite (b64_char_not_pad Z), N.eqb_refl. cbn [andb].
    rewrite !b64_val_char by assumption. rewrite E.
    destruct (b64_octets2 a b _ Hb eq_refl) as [-> ->]. reflexivity.
  - (* a full group of three bytes, then the rest *)
    apply bytes_ok_cons_inv in Hok as [Hb Hok]. apply bytes_ok_cons_inv in Hok as [Hc Hok].
    destruct (b64_octets a b c _ Ha Hb Hc eq_refl) as (Hn & O1 & O2 & O3).
    destruct (b64_sextets _ Hn) as ((X & Y & Z & W) & _ & _ & E).
    cbn [b64_encode]. rewrite (b64_decode_group (b64_char_not_pad W)). unfold b64_group.
    rewrite !b64_val_char by assumption. rewrite E, O1, O2, O3, IH; [reflexivity|exact Hok|].
    cbn [length] in Hf. clear - Hf. lia.
Qed.

Definition nosep (sep : N) (x : bytes) : bool := forallb (fun c => negb (c =? sep)) x.

Lemma nosep_app sep a b : nosep sep (a ++ b) = nosep sep a && nosep sep b.
Proof. apply forallb_app. Qed.
Lemma nosep_rev sep s : nosep sep s = true -> nosep sep (rev s) = true.
Proof. unfold nosep. rewrite !forallb_forall. intros H x Hx. apply H, in_rev, Hx. Qed.

Lemma split_on_app_nosep sep x : forall rest cur, nosep sep x = true ->
  split_on sep (x ++ rest) cur = split_on sep rest (cur ++ x).
Proof.
  induction x as [|c x IH]; intros rest cur H; cbn [app]; [rewrite app_nil_r; reflexivity|].
  cbn [nosep forallb] in H. apply andb_prop in H as [Hc Hx].
  apply Bool.negb_true_iff in Hc. cbn [split_on]. rewrite Hc. rewrite (IH rest (cur ++ [c]) Hx).
  rewrite <- app_assoc. reflexivity.
Qed.

Lemma split_nosep sep s cur : nosep sep s = true -> split_on sep s cur = [cur ++ s].
Proof. intros H. rewrite <- (app_nil_r s) at 1. rewrite (split_on_app_nosep sep s [] cur H). reflexivity. Qed.

Lemma intercalate_cons s x y r : intercalate s (x :: y :: r) = x ++ s ++ intercalate s (y :: r).
Proof. reflexivity. Qed.

Lemma split_intercalate sep s2 : forall xs cur,
  nosep sep s2 = true -> forallb (nosep sep) xs = true ->
  split_on sep (intercalate (sep :: s2) xs) cur =
  match xs with [] => [cur] | x :: r => (cur ++ x) :: map (fun p => s2 ++ p) r end.
Proof.
  induction xs as [|x xs IH]; intros cur Hs Hx; [reflexivity|].
  cbn [forallb] in Hx. apply andb_prop in Hx as [H1 H2].
  (* a single piece holds no separator; otherwise x, then sep, then s2 in front of the rest *)
  destruct xs as [|y ys]; [apply split_nosep, H1|].
  rewrite intercalate_cons, (split_on_app_nosep sep x _ cur H1). cbn [app split_on]. rewrite N.eqb_refl.
  rewrite (split_on_app_nosep sep s2 _ [] Hs), (IH _ Hs H2). reflexivity.
Qed.

Lemma nosep_intercalate sep s2 : forall xs,
  nosep sep s2 = true -> forallb (nosep sep) xs = true -> nosep sep (intercalate s2 xs) = true.
Proof.
  induction xs as [|x xs IH]; intros Hs Hx; [reflexivity|].
  cbn [forallb] in Hx. apply andb_prop in Hx as [H1 H2]. destruct xs as [|y ys]; [exact H1|].
  rewrite intercalate_cons, !nosep_app, H1, Hs. exact (IH Hs H2).
Qed.

Lemma trim_start_ch_nosep ch s : nosep ch s = true -> trim_start_ch ch s = s.
Proof.
  destruct s as [|c s]; [reflexivity|]. cbn [nosep forallb trim_start_ch]. intros H. apply andb_prop in H as [H _].
  apply Bool.negb_true_iff in H. rewrite H. reflexivity.
Qed.
Lemma nosep_trim_start_ch sep ch s : nosep sep s = true -> nosep sep (trim_start_ch ch s) = true.
Proof.
  induction s as [|c s IH]; intros H; [reflexivity|]. cbn [trim_start_ch].
  destruct (c =? ch); [|exact H]. apply IH. cbn [nosep forallb] in H. apply andb_prop in H. apply H.
Qed.
Lemma trim_brackets l r s : nosep l s = true -> nosep r s = true -> l <> r ->
  trim_end_ch r (trim_start_ch l ([l] ++ s ++ [r])) = s.
Proof.
  intros Hl Hr Hne. cbn [app trim_start_ch]. rewrite N.eqb_refl, trim_start_ch_nosep.
  - unfold trim_end_ch. rewrite rev_app_distr. cbn [rev app trim_start_ch].
    rewrite N.eqb_refl, trim_start_ch_nosep by (apply nosep_rev, Hr). apply rev_involutive.
  - (* nothing more goes at the front: s holds no l, and r is not l *)
    rewrite nosep_app, Hl. cbn. apply N.eqb_neq in Hne. rewrite N.eqb_sym, Hne. reflexivity.
Qed.

Lemma all_some_map_some {A} (l : list A) : all_some (map Some l) = Some l.
Proof. induction l as [|x l IH]; [reflexivity|]. cbn [map all_some]. rewrite IH. reflexivity. Qed.

(* One byte of a digest in a list format: [g] renders it, over the alphabet [ok], and [f] parses it back. *)
Definition piece_ok (f : bytes -> option N) (g : N -> bytes) (ok : N -> bool) (b : N) : bool :=
  let s := g b in forallb ok s && opt_eqb N.eqb (f s) (Some b).

Lemma piece_ok_inv f g ok b : piece_ok f g ok b = true -> forallb ok (g b) = true /\ f (g b) = Some b.
Proof. intros H. apply andb_prop in H as [H1 H2]. auto using opt_eqb_some. Qed.

Lemma pieces_nosep {f g ok} c {d} : (forall b, In b d -> piece_ok f g ok b = true) -> ok c = false ->
  forallb (nosep c) (map g d) = true.
Proof.
  intros P Hc. apply forallb_forall. intros x Hx. apply in_map_iff in Hx as (b & <- & Hin).
  destruct (piece_ok_inv _ _ _ _ (P b Hin)) as [A _]. unfold nosep. rewrite forallb_forall in *.
  intros ch Hch. apply Bool.negb_true_iff, N.eqb_neq. intros ->. rewrite (A _ Hch) in Hc. discriminate.
Qed.

(* The pieces are joined by [sep :: s2]: splitting at [sep] leaves [s2] in front of every piece but the
   first, and [f] (which trims) does not see it. *)
Theorem parse_intercalate {f : bytes -> option N} {g ok} sep s2 {d} :
  (forall b, In b d -> piece_ok f g ok b = true) ->
  ok sep = false -> nosep sep s2 = true -> (forall p, f (s2 ++ p) = f p) -> d <> [] ->
  all_some (map f (split_on sep (intercalate (sep :: s2) (map g d)) [])) = Some d.
Proof.
  intros P Hc Hs Hf Hd. rewrite (split_intercalate _ _ _ _ Hs (pieces_nosep _ P Hc)).
  assert (F : forall b, In b d -> f (g b) = Some b) by (intros b Hin; apply (piece_ok_inv f g ok b), P, Hin).
  destruct d as [|b0 d]; [congruence|]. cbn [map app]. rewrite (F b0 (or_introl eq_refl)), !map_map.
  rewrite (map_ext_in _ Some) by (intros b Hin; rewrite Hf; apply F; right; exact Hin).
  apply (all_some_map_some (b0 :: d)).
Qed.

Lemma pieces_ok f g ok d : forallb (piece_ok f g ok) (upto 256 0) = true -> bytes_ok d = true ->
  forall b, In b d -> piece_ok f g ok b = true.
Proof. intros S H b Hb. apply (forallb_below _ 256 S), (bytes_ok_forall d H), Hb. Qed.

Lemma hex_pieces_ok d : bytes_ok d = true -> forall b, In b d ->
  piece_ok (fun p => parse_hex_u8 (trim p)) hex2 (fun c => if hex_val c then true else false) b = true.
Proof. apply pieces_ok. vm_compute. reflexivity. Qed.
Lemma dec_pieces_ok d : bytes_ok d = true -> forall b, In b d ->
  piece_ok (fun p => parse_u8 (trim p)) show_dec is_digit b = true.
Proof. apply pieces_ok. vm_compute. reflexivity. Qed.

Lemma want32_some d : length d = 32%nat -> want32 (Some d) = Some d.
Proof. intros H. unfold want32. rewrite H. reflexivity. Qed.

Theorem hex_roundtrip d : bytes_ok d = true -> length d = 32%nat -> parse_dotted_hex (fmt_hex d) = Some d.
Proof.
  intros Hok Hl. unfold parse_dotted_hex, fmt_hex.
  (* the last argument: nothing stands behind ':' , so the piece parser sees the piece itself *)
  rewrite (parse_intercalate 58 [] (hex_pieces_ok d Hok) eq_refl eq_refl (fun _ => eq_refl)).
  - apply want32_some, Hl.
  - intros ->. discriminate Hl.
Qed.

Theorem array_roundtrip d : bytes_ok d = true -> length d = 32%nat -> parse_array (fmt_array d) = Some d.
Proof.
  intros Hok Hl. unfold parse_array, fmt_array. pose proof (dec_pieces_ok d Hok) as P.
  (* the last argument: [trim] drops the blank behind ',' by computation *)
  rewrite trim_brackets, (parse_intercalate 44 [32] P eq_refl eq_refl (fun _ => eq_refl)).
  - apply want32_some, Hl.
  - intros ->. discriminate Hl.
  - (* no '[' nor ']' between the brackets: digits, commas and blanks only *)
    apply nosep_intercalate; [reflexivity|]. apply (pieces_nosep 91 P). reflexivity.
  - apply nosep_intercalate; [reflexivity|]. apply (pieces_nosep 93 P). reflexivity.
  - discriminate.
Qed.

(* without a comma the array parser sees a single piece: never 32 of them *)
Lemma parse_array_no_comma s : nosep 44 s = true -> parse_array s = None.
Proof.
  intros H. unfold parse_array, trim_end_ch. rewrite split_nosep.
  - cbn [map all_some]. destruct (parse_u8 _); reflexivity.
  - apply nosep_rev, nosep_trim_start_ch, nosep_rev, nosep_trim_start_ch, H.
Qed.
