(* HuffmanP.v -- the Huffman coder of Model/Qpack.v (httlib-huffman as used by
   qpack.rs): decode (encode s) = s for every byte string. *)
From WT.Model Require Import Base Qpack.
From WT.Proofs Require Import BaseP.
From Coq Require Import Lia.

Fixpoint is_prefix (a b : list bool) : bool :=
  match a, b with
  | [], _ => true
  | x :: a', y :: b' => Bool.eqb x y && is_prefix a' b'
  | _ :: _, [] => false
  end.

(* a row whose code is a prefix of a row's code is that row *)
Definition prefix_free (t : list (N * list bool)) : bool :=
  forallb (fun p => forallb (fun q =>
    negb (is_prefix (snd p) (snd q)) || ((fst p =? fst q) && beqb (snd p) (snd q))) t) t.

Lemma huff_prefix_free : prefix_free huff_codes = true.
Proof. vm_compute. reflexivity. Qed.

Lemma beqb_eq a : forall b, beqb a b = true -> a = b.
Proof.
  induction a as [|x a IH]; intros [|y b] H; try discriminate; [reflexivity|].
  cbn [beqb] in H. apply andb_prop in H as [H1 H2].
  apply Bool.eqb_prop in H1. apply IH in H2. congruence.
Qed.

Lemma beqb_refl a : beqb a a = true.
Proof. induction a as [|x a IH]; [reflexivity|]. cbn [beqb]. rewrite Bool.eqb_reflx. exact IH. Qed.

Lemma is_prefix_app a : forall b, is_prefix a (a ++ b) = true.
Proof. induction a as [|x a IH]; intros b; [reflexivity|]. cbn [app is_prefix]. rewrite Bool.eqb_reflx. apply IH. Qed.

Lemma find_code_some p t s : find_code p t = Some s -> In (s, p) t.
Proof.
  induction t as [|[s' c] t IH]; [discriminate|]. cbn [find_code].
  destruct (beqb p c) eqn:E; [|right; auto].
  intros [= ->]. apply beqb_eq in E. subst c. left. reflexivity.
Qed.

Lemma find_code_in p t s : In (s, p) t -> find_code p t <> None.
Proof.
  induction t as [|[s' c] t IH]; [intros []|]. cbn [find_code]. intros [[= -> ->]|H].
  - rewrite beqb_refl. discriminate.
  - destruct (beqb p c); [discriminate|auto].
Qed.

Lemma prefix_free_find t s c p : prefix_free t = true -> In (s, c) t -> is_prefix p c = true ->
  find_code p t = if beqb p c then Some s else None.
Proof.
  intros F Hc Hp. destruct (find_code p t) as [s'|] eqn:Hf.
  - (* p is the code of a row s' and a prefix of c: F at these two rows says they are one row *)
    apply find_code_some in Hf. unfold prefix_free in F.
    rewrite forallb_forall in F. specialize (F _ Hf). rewrite forallb_forall in F. specialize (F _ Hc).
    cbn [fst snd] in F. rewrite Hp in F. apply andb_prop in F as [F1 F2].
    apply N.eqb_eq in F1. rewrite F2, F1. reflexivity.
  - (* nothing is found, whereas p = c would be found at row s *)
    destruct (beqb p c) eqn:E; [|reflexivity]. apply beqb_eq in E. subst c. destruct (find_code_in _ _ _ Hc Hf).
Qed.

Lemma code_of_in s : s < 257 -> In (s, code_of s) huff_codes.
Proof.
  intros H. unfold code_of.
  pose proof (forallb_below (fun s => match nth_error huff_codes (N.to_nat s) with Some (s', _) => s' =? s | None => false end)
                257 ltac:(vm_compute; reflexivity) s H) as E. cbv beta in E.
  destruct (nth_error huff_codes (N.to_nat s)) as [[s' c]|] eqn:En; [|discriminate].
  apply N.eqb_eq in E. subst s'. exact (nth_error_In _ _ En).
Qed.

Lemma huff_find s p : s < 257 -> is_prefix p (code_of s) = true ->
  find_code p huff_codes = if beqb p (code_of s) then Some s else None.
Proof. intros H. exact (prefix_free_find _ _ _ p huff_prefix_free (code_of_in s H)). Qed.

(* an empty code is a prefix of every code: looked up as a prefix of its own row's code it is found at row s,
   as a prefix of the next row's code at row s + 1 or not at all *)
Lemma code_nonempty s : s < 256 -> code_of s <> [].
Proof.
  intros Hs E. pose proof (huff_find s [] ltac:(lia) eq_refl) as F.
  rewrite E, (huff_find (s + 1) [] ltac:(lia) eq_refl) in F.
  destruct (beqb [] (code_of (s + 1))); [injection F; lia|discriminate].
Qed.

(* while the code of s is being read the pending bits are a proper prefix of it, so nothing is found
   until its last bit *)
Lemma hdecode_code s : s < 256 -> forall q pend rest out, q <> [] -> pend ++ q = code_of s ->
  hdecode_bits pend (q ++ rest) out = hdecode_bits [] rest (out ++ [s]).
Proof.
  intros Hs. induction q as [|x q IH]; intros pend rest out Hq E; [contradiction|].
  change (x :: q) with ([x] ++ q) in E. rewrite app_assoc in E.
  cbn [app hdecode_bits]. rewrite (huff_find s) by (lia || (rewrite <- E; apply is_prefix_app)).
  destruct q as [|y q].
  - (* x is the last bit of the code *)
    rewrite app_nil_r in E. rewrite E, beqb_refl, (proj2 (N.ltb_lt _ _) Hs). reflexivity.
  - (* bits are left: pend ++ [x] is shorter than the code *)
    destruct (beqb (pend ++ [x]) (code_of s)) eqn:B; [|apply IH; [discriminate|exact E]].
    apply beqb_eq in B. rewrite <- B in E. apply (f_equal (@length bool)) in E.
    rewrite app_length in E. cbn [length] in E. lia.
Qed.

Lemma hdecode_sym s : s < 256 -> forall rest out,
  hdecode_bits [] (code_of s ++ rest) out = hdecode_bits [] rest (out ++ [s]).
Proof. intros Hs rest out. apply (hdecode_code s Hs); [apply code_nonempty, Hs|reflexivity]. Qed.

Lemma hdecode_syms s : bytes_ok s = true -> forall rest out,
  hdecode_bits [] (flat_map code_of s ++ rest) out = hdecode_bits [] rest (out ++ s).
Proof.
  induction s as [|x s IH]; intros Hok rest out; [cbn [flat_map app]; rewrite app_nil_r; reflexivity|].
  apply bytes_ok_cons_inv in Hok as [Hx Hs'].
  cbn [flat_map]. rewrite <- app_assoc, hdecode_sym by exact Hx.
  rewrite (IH Hs'), <- app_assoc. reflexivity.
Qed.

Lemma byte_of_bits_value n : forall bits acc,
  byte_of_bits acc n bits =
  (bits_value acc (firstn n bits ++ repeat true (n - length bits)), skipn n bits).
Proof.
  induction n as [|n IH]; intros [|b r] acc; cbn [byte_of_bits]; try reflexivity.
  - rewrite IH, firstn_nil, skipn_nil, Nat.sub_0_r. reflexivity.
  - rewrite IH. reflexivity.
Qed.

Lemma bits_value_snoc p : forall acc b, bits_value acc (p ++ [b]) = bits_value acc p * 2 + (if b then 1 else 0).
Proof. induction p as [|x p IH]; intros acc b; [reflexivity|]. apply IH. Qed.

Lemma bits_msb_value n p : length p = n -> bits_msb n (bits_value 0 p) = p.
Proof.
  intros <-. induction p as [|b p IH] using rev_ind; [reflexivity|].
  rewrite app_length, Nat.add_comm, bits_value_snoc. cbn [length Nat.add bits_msb].
  rewrite N.div_add_l by lia. replace ((if b then 1 else 0) / 2) with 0 by (destruct b; reflexivity).
  rewrite N.add_0_r, IH, N.add_comm, N.mul_comm, N.odd_add_mul_2. destruct b; reflexivity.
Qed.

Lemma pack_nil f : pack_bits f [] = [].
Proof. destruct f; reflexivity. Qed.

Lemma unpack_pack fuel : forall bits, (length bits < fuel)%nat ->
  exists k, (k < 8)%nat /\ unpack_bits (pack_bits fuel bits) = bits ++ repeat true k.
Proof.
  induction fuel as [|f IH]; intros bits Hl; [lia|].
  destruct bits as [|b bits']; [exists 0%nat; split; [lia|reflexivity]|]. set (l := b :: bits') in *.
  change (pack_bits (S f) l) with (let (v, r) := byte_of_bits 0 8 l in v :: pack_bits f r).
  rewrite byte_of_bits_value. unfold unpack_bits. cbn [flat_map]. fold (unpack_bits (pack_bits f (skipn 8 l))).
  rewrite bits_msb_value by (rewrite app_length, firstn_length, repeat_length; lia).
  destruct (Nat.le_gt_cases (length l) 8) as [Hs|Hg].
  - (* the last byte, filled up with ones *)
    exists (8 - length l)%nat. rewrite skipn_all2, pack_nil, firstn_all2, app_nil_r by exact Hs.
    split; [subst l; cbn [length]; lia|reflexivity].
  - (* a full byte of l, then the rest of l *)
    destruct (IH (skipn 8 l)) as (k & Hk & E); [rewrite skipn_length; lia|]. exists k. split; [exact Hk|].
    rewrite E. replace (8 - length l)%nat with 0%nat by lia. cbn [repeat]. rewrite app_nil_r, app_assoc, firstn_skipn. reflexivity.
Qed.

Lemma ones_pending k : (k < 8)%nat -> forall out,
  hdecode_bits [] (repeat true k) out = Some (out, repeat true k) /\ pad_ok (repeat true k) = true.
Proof.
  intros Hk out.
  destruct k as [|[|[|[|[|[|[|[|k]]]]]]]]; try lia; split; vm_compute; reflexivity.
Qed.

Theorem huffman_roundtrip s : bytes_ok s = true -> hdecode (hencode s) = Some s.
Proof.
  intros Hok. unfold hdecode, hencode.
  destruct (unpack_pack (S (length (flat_map code_of s))) (flat_map code_of s) ltac:(lia)) as (k & Hk & E).
  rewrite E, (hdecode_syms s Hok).
  destruct (ones_pending k Hk ([] ++ s)) as [E1 E2]. rewrite E1, E2. reflexivity.
Qed.

Lemma byte_of_bits_bound : forall n acc bits, fst (byte_of_bits acc n bits) < (acc + 1) * 2 ^ N.of_nat n.
Proof.
  induction n as [|n IH]; intros acc bits.
  - cbn [byte_of_bits fst]. change (2 ^ N.of_nat 0) with 1. lia.
  - cbn [byte_of_bits]. rewrite Nat2N.inj_succ, N.pow_succ_r', N.mul_assoc.
    (* the next accumulator is at most acc * 2 + 1, and one more than that is (acc + 1) * 2 *)
    destruct bits as [|b r]; (eapply N.lt_le_trans; [apply IH|apply N.mul_le_mono_r]).
    + lia.
    + destruct b; lia.
Qed.

Lemma pack_bits_ok fuel : forall bits, bytes_ok (pack_bits fuel bits) = true.
Proof.
  induction fuel as [|f IH]; intros bits; [reflexivity|].
  destruct bits as [|b r]; [reflexivity|].
  cbn [pack_bits]. destruct (byte_of_bits 0 8 (b :: r)) as [v r'] eqn:E.
  rewrite bytes_ok_cons, IH, Bool.andb_true_r.
  pose proof (byte_of_bits_bound 8 0 (b :: r)) as B. rewrite E in B. cbn [fst] in B.
  unfold byte_ok. apply N.ltb_lt. change ((0 + 1) * 2 ^ N.of_nat 8) with 256 in B. exact B.
Qed.

Theorem hencode_bytes_ok s : bytes_ok (hencode s) = true.
Proof. unfold hencode. apply pack_bits_ok. Qed.
