(* EmitOrderP.v -- order and representation of emitted field sections (C16): sorted insertion keeps
   pseudo-header fields in front; every field line is a static-table reference or a literal. *)
From WT.Model Require Import Base Qpack.
From WT.Proofs Require Import QpackRT.

(* no pseudo-header after a regular field; [seen] = a regular field has been passed *)
Fixpoint pfirst (seen : bool) (l : hmap) : bool :=
  match l with
  | [] => true
  | (k, _) :: r => if is_pseudo k then negb seen && pfirst seen r else pfirst true r
  end.

Lemma pfirst_hins p : forall l seen, (seen = true -> is_pseudo (fst p) = false) ->
  pfirst seen l = true -> pfirst seen (hins p l) = true.
Proof.
  destruct p as [k v]. cbn [fst]. induction l as [|[k' v'] r IH]; intros seen Hp H; cbn [hins].
  - cbn [pfirst]. destruct (is_pseudo k); [|reflexivity]. destruct seen; [discriminate (Hp eq_refl)|reflexivity].
  - destruct (field_leb (k, v) (k', v')) eqn:E; unfold field_leb in E; cbn [fst pfirst] in *.
    (* p goes in front: if regular, so is k' by E; or further down: if k' is regular, so is k by E *)
    + destruct (is_pseudo k).
      * destruct seen; [discriminate (Hp eq_refl)|exact H].
      * destruct (is_pseudo k'); [discriminate|exact H].
    + destruct (is_pseudo k').
      * apply andb_prop in H as [H1 H2]. rewrite H1. exact (IH seen Hp H2).
      * apply IH; [intros _|exact H]. destruct (is_pseudo k); [discriminate|reflexivity].
Qed.

Theorem sorted_headers_pseudo_first m : pfirst false (sorted_headers m) = true.
Proof.
  unfold sorted_headers. induction m as [|p m IH]; [reflexivity|]. cbn [fold_right].
  apply pfirst_hins; [discriminate|exact IH].
Qed.

(* the representation of every emitted field line, read off its first byte (RFC 9204 4.5):
   1 T=1 ...  indexed, static;  01 N T=1 ...  literal with static name reference;  001 ...  literal *)
Definition static_or_literal (b : N) : bool :=
  match field_line_type b with
  | FIndexed => negb (N.land b 64 =? 0)
  | FLiteralRefName => negb (N.land b 16 =? 0)
  | FLiteralLitName => true
  | _ => false
  end.

Theorem enc_field_static_or_literal kv : exists b r, enc_field kv = b :: r /\ static_or_literal b = true.
Proof.
  destruct kv as [k v]. unfold enc_field, static_or_literal. destruct (lookup_index k v) as [i|i|].
  - destruct (indexed_head i) as (b & r & E & T & L). exists b, r. rewrite T, L. split; [exact E|reflexivity].
  - destruct (refname_head i) as (b & r & E & T & L). exists b, (r ++ enc_str 7 0 v). rewrite E, T, L. split; reflexivity.
  - destruct (enc_str_head k) as (b & r & E & T). exists b, (r ++ enc_str 7 0 v). rewrite E, T. split; reflexivity.
Qed.
