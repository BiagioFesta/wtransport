(* HandoffP.v -- exactly-once delivery (C08) and independence of stalled streams (C07)
   for every capacity, every number of streams and every interleaving. *)
From WT.Model Require Import Base Handoff.
From Coq Require Import Lia Permutation.

Lemma mem_In x l : mem x l = true <-> In x l.
Proof.
  induction l as [|y l IH]; cbn [mem In]; [split; [discriminate|tauto]|].
  rewrite Bool.orb_true_iff, N.eqb_eq, IH. split; intros [H|H]; auto.
Qed.

Lemma mem_last x l : mem x (l ++ [x]) = true.
Proof. apply mem_In, in_or_app. right. left. reflexivity. Qed.

Lemma remove1_perm x l : In x l -> Permutation l (x :: remove1 x l).
Proof.
  induction l as [|y l IH]; cbn [In remove1]; [tauto|]. intros H.
  destruct (x =? y) eqn:E.
  - apply N.eqb_eq in E. subst. reflexivity.
  - apply N.eqb_neq in E. destruct H as [H|H]; [congruence|].
    rewrite (IH H) at 1. apply perm_swap.
Qed.

(* Lists appended in different orders are compared as multisets, by counting the occurrences of an
   arbitrary id ([Permutation_count_occ], [NoDup_count_occ]): [count_occ_app] turns both sides into sums,
   the two lemmas below give the balance of taking one id out, the rest is arithmetic. *)
Lemma count_cons x l y : count_occ N.eq_dec (x :: l) y = (count_occ N.eq_dec [x] y + count_occ N.eq_dec l y)%nat.
Proof. exact (count_occ_app N.eq_dec [x] l y). Qed.
Lemma count_remove1 x l : In x l -> forall y,
  count_occ N.eq_dec l y = (count_occ N.eq_dec [x] y + count_occ N.eq_dec (remove1 x l) y)%nat.
Proof. intros H y. rewrite <- count_cons. apply Permutation_count_occ, remove1_perm, H. Qed.

(* conservation: the places hold each id the peer opened, once *)
Definition inv (s : hst) : Prop := NoDup (all_ids s) /\ Permutation (all_ids s) (opened s).

Lemma inv_init : inv hinit.
Proof. split; [constructor|reflexivity]. Qed.

Lemma inv_moved s : inv s -> forall s', opened s' = opened s -> Permutation (all_ids s') (all_ids s) -> inv s'.
Proof.
  intros [Hnd Hp] s' Ho P. split; [exact (Permutation_NoDup (Permutation_sym P) Hnd)|]. rewrite P, Ho. exact Hp.
Qed.

(* [inv_moved] from [Hi : inv s], for [inv] of an explicit successor of [s] in which one id went from one
   place to the end of another; [bal] is the balance of the place it left ([count_cons] for the head of a
   list, [count_remove1] for a member); [lia] needs none for the place it reached *)
Ltac moved Hi bal :=
  apply (inv_moved _ Hi); [reflexivity|]; apply (Permutation_count_occ N.eq_dec); intros ?; unfold all_ids;
  cbn [quinn_q waiting ready chan delivered gone]; rewrite !count_occ_app, bal; lia.

Theorem step_preserves_inv cap s l s' : inv s -> step cap s l = Some s' -> inv s'.
Proof.
  intros Hi H. destruct l as [id|id|id| |id| |]; cbn [step] in H.
  (* PeerPreamble, PeerAbort: the id leaves [waiting] *)
  2-3: destruct (mem id (waiting s)) eqn:E; [|discriminate].
  2-3: injection H as <-; apply mem_In in E.
  2-3: moved Hi (count_remove1 id (waiting s) E).
  - (* PeerOpen: a new id, in the accept queue and in the log *)
    destruct (mem id (opened s)) eqn:E; [discriminate|]. injection H as <-. destruct Hi as [Hnd Hp].
    unfold inv, all_ids in *. cbn [quinn_q waiting ready chan delivered gone opened].
    (* id to the front on both sides: [NoDup (id :: all_ids s)] and [Permutation (id :: all_ids s) (id :: opened s)] *)
    rewrite <- app_assoc. cbn [app]. rewrite <- Permutation_middle, <- Permutation_cons_append.
    split; [constructor|apply perm_skip, Hp].
    + (* id is in no place yet: the places hold what the log holds, and id is not in the log *)
      rewrite Hp, <- mem_In, E. discriminate.
    + exact Hnd.
  - (* WorkerAccept *) destruct s as [[|id q] w r c d g o]; [discriminate|]. injection H as <-.
    moved Hi (count_cons id q).
  - (* TaskSend: the id leaves [ready] *)
    destruct (mem id (ready s)) eqn:E; [|discriminate]. destruct (length (chan s) <? cap)%nat; [|discriminate].
    injection H as <-. apply mem_In in E.
    moved Hi (count_remove1 id (ready s) E).
  - (* AppRecv *) destruct s as [q w r [|id c] d g o]; [discriminate|]. injection H as <-.
    moved Hi (count_cons id c).
  - (* AppCancel *) injection H as <-. exact Hi.
Qed.

(* a step need keep [P] only under the labels of [ls]: the runs of legacy_stalled_streams_block_all
   leave out the stalled streams' own steps *)
Theorem run_preserves stp (P : hst -> Prop) ls :
  (forall s l s', In l ls -> P s -> stp s l = Some s' -> P s') ->
  forall s s', P s -> run stp s ls = Some s' -> P s'.
Proof.
  induction ls as [|l ls IH]; intros Hstep s s' Hs H; cbn [run] in H; [injection H as <-; exact Hs|].
  destruct (stp s l) as [s1|] eqn:E; [|discriminate].
  apply (IH (fun s l' s' Hl => Hstep s l' s' (or_intror Hl)) s1 s'); [|exact H].
  exact (Hstep s l s1 (or_introl eq_refl) Hs E).
Qed.

Corollary run_preserves_inv {cap ls s s'} : inv s -> run (step cap) s ls = Some s' -> inv s'.
Proof. exact (run_preserves (step cap) inv ls (fun s l s' _ => step_preserves_inv cap s l s') s s'). Qed.

Lemma inv_exactly_once s : inv s ->
  NoDup (delivered s) /\ (forall x, In x (delivered s) -> In x (opened s)) /\
  NoDup (all_ids s) /\ Permutation (all_ids s) (opened s).
Proof.
  intros [Hnd Hp]. repeat split; [| |exact Hnd|exact Hp].
  (* [delivered] is one of the lists [all_ids] appends: no id twice there, and each of them in [opened] *)
  - unfold all_ids in Hnd. rewrite (NoDup_count_occ N.eq_dec) in *. intros x. specialize (Hnd x).
    rewrite !count_occ_app in Hnd. lia.
  - intros x Hx. apply (Permutation_in _ Hp). unfold all_ids. do 4 (apply in_or_app; right). apply in_or_app. auto.
Qed.

Lemma send_disabled_iff cap s id :
  step cap s (TaskSend id) = None <-> (In id (ready s) -> (cap <= length (chan s))%nat).
Proof.
  cbn [step]. rewrite <- mem_In, <- Nat.ltb_ge.
  destruct (mem id (ready s)), (length (chan s) <? cap)%nat; cbn [andb]; intuition congruence.
Qed.

Lemma step_cap_S {cap s l s'} : step cap s l = Some s' -> step (S cap) s l = Some s'.
Proof.
  destruct l as [id|id|id| |id| |]; cbn [step]; auto.
  destruct (mem id (ready s)); cbn [andb]; [|discriminate].
  destruct (Nat.ltb_spec (length (chan s)) cap); [|discriminate].
  destruct (Nat.ltb_spec (length (chan s)) (S cap)); [auto|lia].
Qed.

Lemma tasksend_chan {cap s id s1} : step cap s (TaskSend id) = Some s1 -> chan s1 = chan s ++ [id].
Proof.
  cbn [step]. destruct (mem id (ready s) && (length (chan s) <? cap)%nat); [|discriminate].
  intros [= <-]. reflexivity.
Qed.

Definition drain (n : nat) : list lbl := repeat AppRecv n.

Lemma run_app stp : forall a b s,
  run stp s (a ++ b) = match run stp s a with Some s' => run stp s' b | None => None end.
Proof. induction a as [|l a IH]; intros b s; cbn [app run]; [reflexivity|]. destruct (stp s l); auto. Qed.

Lemma drain_all cap q w r g o : forall c d,
  run (step cap) (mkhst q w r c d g o) (drain (length c)) = Some (mkhst q w r [] (d ++ c) g o).
Proof.
  induction c as [|id c IH]; intros d.
  - cbn. rewrite app_nil_r. reflexivity.
  - (* the first AppRecv computes: id goes from the head of the channel to the end of d *)
    etransitivity; [apply (IH (d ++ [id]))|]. rewrite <- app_assoc. reflexivity.
Qed.

Lemma accept_upto cap j post : forall pre s, quinn_q s = pre ++ j :: post ->
  run (step cap) s (repeat WorkerAccept (S (length pre)))
  = Some (mkhst post ((waiting s ++ pre) ++ [j]) (ready s) (chan s) (delivered s) (gone s) (opened s)).
Proof.
  induction pre as [|x pre IH]; intros s H; cbn [length repeat run step]; rewrite H; [rewrite app_nil_r; reflexivity|].
  etransitivity; [apply IH; reflexivity|]. cbn [waiting]. rewrite <- (app_assoc _ [x]). reflexivity.
Qed.

Lemma accept_n cap : forall pre s j post, quinn_q s = pre ++ j :: post ->
  exists s', run (step cap) s (repeat WorkerAccept (S (length pre))) = Some s' /\
             In j (waiting s') /\ chan s' = chan s /\ ready s' = ready s /\ delivered s' = delivered s.
Proof.
  intros pre s j post H. eexists. split; [apply accept_upto, H|]. cbn [waiting chan ready delivered].
  rewrite <- mem_In, mem_last. auto.
Qed.

(* C07, constructively: the plan holds no step of another stream *)
Theorem healthy_stream_is_delivered cap s pre j post :
  (1 <= cap)%nat -> quinn_q s = pre ++ j :: post ->
  exists s', run (step cap) s
               (repeat WorkerAccept (S (length pre)) ++ [PeerPreamble j] ++ drain (length (chan s)) ++ [TaskSend j; AppRecv])
             = Some s' /\ In j (delivered s').
Proof.
  intros Hcap Hq. apply Nat.ltb_lt in Hcap.
  rewrite run_app, (accept_upto _ _ _ _ _ Hq). cbn [app run step waiting]. rewrite mem_last.
  rewrite run_app, drain_all. cbn [run step ready chan length]. rewrite mem_last, Hcap.
  eexists. split; [reflexivity|]. rewrite <- mem_In. apply mem_last.
Qed.

Definition no_progress_of (a : N) (l : lbl) : bool :=
  match l with PeerPreamble x | PeerAbort x => negb (x =? a) | _ => true end.

(* the design of the pinned tree: once stalled streams hold every slot and take no step of their own, only PeerOpen and
   AppCancel are enabled, and nothing is ever delivered again *)
Theorem legacy_stalled_streams_block_all cap ls s s' :
  (cap <= length (waiting s))%nat -> ready s = [] -> chan s = [] ->
  (forall l a, In l ls -> In a (waiting s) -> no_progress_of a l = true) ->
  run (step_legacy cap) s ls = Some s' -> delivered s' = delivered s.
Proof.
  intros Hcap Hr Hc Hok H.
  (* every state of such a run is blocked: a step under a label of ls keeps that, and it holds at s *)
  pose (blocked s1 := waiting s1 = waiting s /\ ready s1 = [] /\ chan s1 = [] /\ delivered s1 = delivered s).
  enough (B : blocked s') by apply B.
  apply (run_preserves (step_legacy cap) blocked ls) with (s := s); [|unfold blocked; auto|exact H].
  clear - Hcap Hok. intros s1 l s2 Hl (Hw & Hr & Hc & Hd) E. unfold blocked. specialize (Hok l).
  destruct l as [id|id|id| |id| |]; cbn [step_legacy step] in E.
  (* PeerPreamble, PeerAbort: enabled only for a stream in [waiting], and [Hok] rules those out *)
  2-3: destruct (mem id (waiting s1)) eqn:M; [|discriminate].
  2-3: rewrite Hw in M; apply mem_In in M; specialize (Hok id Hl M).
  2-3: cbn [no_progress_of] in Hok; rewrite N.eqb_refl in Hok; discriminate.
  - (* PeerOpen touches the accept queue and the log only *)
    destruct (mem id (opened s1)); [discriminate|]. injection E as <-. auto.
  - (* WorkerAccept: the stalled streams hold all cap slots, or more *)
    unfold slots_in_use in E. rewrite Hw, Hr, Hc, !Nat.add_0_r, (proj2 (Nat.ltb_ge _ _) Hcap) in E. discriminate.
  - (* TaskSend: nothing is ready *) rewrite Hr in E. discriminate.
  - (* AppRecv: the channel is empty *) rewrite Hc in E. discriminate.
  - (* AppCancel *) injection E as <-. auto.
Qed.

(* the accept channel of bidirectional streams has one slot: one stream that stalls after the worker
   accepted it is enough *)
Theorem legacy_one_stalled_stream_blocks_all a ls s' :
  forallb (no_progress_of a) ls = true ->
  run (step_legacy 1) hinit ([PeerOpen a; WorkerAccept] ++ ls) = Some s' -> delivered s' = [].
Proof.
  intros Hok H. rewrite forallb_forall in Hok.
  (* the two steps of the prefix compute: [H] is a run over [ls] from the state in which [a] is waiting *)
  change (run (step_legacy 1) (mkhst [] [a] [] [] [] [] [a]) ls = Some s') in H.
  apply (legacy_stalled_streams_block_all 1 ls (mkhst [] [a] [] [] [] [] [a])); auto.
  intros l b Hl [<-|[]]. auto.
Qed.

(* [step] delivers in the same situation (computed; healthy_stream_is_delivered is the general statement) *)
Example repaired_delivers :
  exists s', run (step 1) hinit [PeerOpen 4; WorkerAccept; PeerOpen 8; WorkerAccept; PeerPreamble 8; TaskSend 8; AppRecv] = Some s'
             /\ delivered s' = [8] /\ waiting s' = [4].
Proof. exists (mkhst [] [4] [] [] [8] [] [4; 8]). repeat split. Qed.
