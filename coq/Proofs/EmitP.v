(* EmitP.v -- the control stream the endpoint emits decodes to its settings, for every order of the map (C16) *)
From WT.Model Require Import Base Frame Wire Emit.
From WT.Proofs Require Import FrameP WireP.

Theorem emit_control_decodes order rest :
  forallb pair_ok order = true -> sok_nodup [] order = true ->
  len (settings_payload order) <= max_parse_payload ->
  exists r1, sheader_read (emit_control order ++ rest) = (SVal (mksheader SControl None), r1) /\
             frame_read r1 = (RVal (mkframe KSettings (settings_payload order) None), rest) /\
             settings_with_frame (settings_payload order) = Val (filter sok order).
Proof.
  intros H1 H2 H3. unfold emit_control. rewrite <- app_assoc.
  eexists. split; [apply sheader_read_write; reflexivity|]. split.
  - apply frame_read_write; [reflexivity|exact H3].
  - apply settings_roundtrip; assumption.
Qed.

Lemma local_settings_ok :
  forallb pair_ok local_settings = true /\ sok_nodup [] local_settings = true /\
  filter sok local_settings = local_settings /\ len (settings_payload local_settings) <= max_parse_payload.
Proof. vm_compute. repeat split; try reflexivity. discriminate. Qed.
