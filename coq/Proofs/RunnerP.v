(* RunnerP.v -- Model/Runner.v: the session stream after establishment (C04), the control stream
   (C12/C13), stream admission. *)
From WT.Model Require Import Base Varint Ids Frame Async StreamTS Wire Runner Emit.
From WT.Proofs Require Import FrameP AsyncP StreamTSP WireP.

Theorem connect_run_frame f fr rest t : frame_wf fr = true -> len (fpayload fr) <= max_parse_payload ->
  connect_run (S f) (frame_write fr ++ rest) t =
  match fk fr with
  | KData =>
      match capsule_with_frame (fpayload fr) with
      | None => connect_run f rest t
      | Some p => match close_with_capsule p with
                  | Val (c, reason) => RAppClosed c reason
                  | Err e => RClose e
                  | _ => RClose EDatagram
                  end
      end
  | KHeaders | KExercise _ => connect_run f rest t
  | KSettings | KWebTransport => RClose EFrameUnexpected
  end.
Proof.
  intros Hwf Hl. cbn [connect_run]. rewrite (read_frame_async_known TSession false fr rest t Hwf Hl).
  destruct fr as [[] p s]; reflexivity.
Qed.

Lemma connect_run_unknown_frame u p rest t f : unknown_ok u p = true ->
  connect_run (S f) (unknown_frame u p ++ rest) t = connect_run (S f) rest t.
Proof.
  intros H. destruct (unknown_ok_inv u p H) as (Hk & Hu & Hp). cbn [connect_run].
  rewrite (read_frame_async_skips_unknown _ _ _ _ _ _ Hk Hu Hp). reflexivity.
Qed.

(* elements the session stream skips: unknown frames, GREASE frames, HEADERS frames, DATA frames whose
   payload is not a close capsule *)
Inductive sitem :=
| SUnknownFrame (t : N) (p : bytes)
| SFrame (f : frame).

Definition sitem_ok (i : sitem) : bool :=
  match i with
  | SUnknownFrame t p => match fkind_parse t with None => true | Some _ => false end
                         && (t <=? varint_max) && (len p <=? varint_max)
  | SFrame f => frame_wf f && (len (fpayload f) <=? max_parse_payload) &&
                match fk f with
                | KHeaders | KExercise _ => true
                | KData => match capsule_with_frame (fpayload f) with None => true | Some _ => false end
                | _ => false
                end
  end.
Definition enc_sitem (i : sitem) : bytes :=
  match i with SUnknownFrame t p => unknown_frame t p | SFrame f => frame_write f end.
Fixpoint enc_sitems (l : list sitem) : bytes :=
  match l with [] => [] | i :: r => enc_sitem i ++ enc_sitems r end.

(* number of frames the prefix makes the runner go through (fuel it needs) *)
Fixpoint sitems_frames (l : list sitem) : nat :=
  match l with [] => O | SFrame _ :: r => S (sitems_frames r) | SUnknownFrame _ _ :: r => sitems_frames r end.

Theorem connect_run_skip_items : forall items f rest t, forallb sitem_ok items = true ->
  connect_run (S (sitems_frames items + f)) (enc_sitems items ++ rest) t = connect_run (S f) rest t.
Proof.
  induction items as [|[u p|fr] items IH]; intros f rest t Hok; [reflexivity|..].
  all: cbn [forallb sitem_ok] in Hok; apply andb_prop in Hok as [Hi Hok].
  all: cbn [enc_sitems enc_sitem sitems_frames Nat.add]; rewrite <- app_assoc.
  - (* an unknown frame costs no fuel *)
    rewrite (connect_run_unknown_frame u p _ _ _ Hi). apply IH, Hok.
  - (* a frame costs one unit of fuel *)
    apply andb_prop in Hi as [Hi Hkind]. apply andb_prop in Hi as [Hwf Hl]. apply N.leb_le in Hl.
    rewrite (connect_run_frame _ fr _ t Hwf Hl).
    (* the kinds [sitem_ok] admits are the rows of the table that go on with the rest *)
    destruct (fk fr); try discriminate Hkind; [|exact (IH f rest t Hok)..].
    destruct (capsule_with_frame (fpayload fr)); [discriminate Hkind|exact (IH f rest t Hok)].
Qed.

Theorem connect_run_close_capsule items code reason trailing rest t f :
  forallb sitem_ok items = true ->
  code < 4294967296 -> len reason <= 1024 -> utf8_valid reason = true ->
  len (close_capsule_bytes code reason ++ trailing) <= max_parse_payload ->
  connect_run (S (sitems_frames items + f))
    (enc_sitems items ++ frame_write (mkframe KData (close_capsule_bytes code reason ++ trailing) None) ++ rest) t
  = RAppClosed code reason.
Proof.
  intros Hok Hc Hl Hu Hlen.
  rewrite (connect_run_skip_items items f _ t Hok), connect_run_frame by (exact Hlen || reflexivity).
  destruct (close_capsule_roundtrip code reason trailing Hl Hu) as [P1 P2].
  cbn [fk fpayload]. rewrite P1, P2, N.mod_small by exact Hc. reflexivity.
Qed.

Lemma connect_run_end items f t :
  forallb sitem_ok items = true ->
  connect_run (S (sitems_frames items + f)) (enc_sitems items) t =
  match t with Fin => RAppClosed 0 [] | Reset => RClose EClosedCriticalStream | Lost => RNotConnected end.
Proof.
  intros Hok. rewrite <- (app_nil_r (enc_sitems items)), (connect_run_skip_items items f [] t Hok).
  destruct t; reflexivity.
Qed.

Theorem connect_run_lost items f :
  forallb sitem_ok items = true ->
  connect_run (S (sitems_frames items + f)) (enc_sitems items) Lost = RNotConnected.
Proof. apply (connect_run_end items f Lost). Qed.

Theorem connect_run_fin_mid_frame items f p :
  forallb sitem_ok items = true -> fst (frame_read p) = RNone -> p <> [] ->
  connect_run (S (sitems_frames items + f)) (enc_sitems items ++ p) Fin = RClose EFrame.
Proof.
  intros Hok N0 Hp. rewrite (connect_run_skip_items items f p Fin Hok).
  cbn [connect_run]. unfold fuel_for. cbn [read_frame_async]. rewrite frame_read_async_eq.
  destruct (frame_read p) as [x r]. cbn [fst] in N0. subst x.
  destruct p; [congruence|]. reflexivity.
Qed.

Theorem connect_run_malformed_capsule items body trailing rest t f :
  forallb sitem_ok items = true ->
  (len body < 4 \/ 1028 < len body \/ utf8_valid (skipn 4 body) = false) ->
  len body <= varint_max ->
  len (enc capsule_close_type ++ enc (len body) ++ body ++ trailing) <= max_parse_payload ->
  connect_run (S (sitems_frames items + f))
    (enc_sitems items ++
     frame_write (mkframe KData (enc capsule_close_type ++ enc (len body) ++ body ++ trailing) None) ++ rest) t
  = RClose EDatagram.
Proof.
  intros Hok Hbad Hb Hlen.
  rewrite (connect_run_skip_items items f _ t Hok), connect_run_frame by (exact Hlen || reflexivity).
  cbn [fk fpayload]. rewrite (capsule_with_frame_close _ _ Hb), (close_with_capsule_malformed body Hbad). reflexivity.
Qed.

Theorem settings_run_frame f have fr rest t : frame_wf fr = true -> len (fpayload fr) <= max_parse_payload ->
  settings_run (S f) have (frame_write fr ++ rest) t =
  match fk fr, have with
  | KSettings, None =>
      match settings_with_frame (fpayload fr) with
      | Val m => settings_run f (Some m) rest t
      | Err e => (RClose e, None)
      | _ => (RClose EFrame, None)
      end
  | KExercise _, None => (RClose EMissingSettings, None)
  | KExercise _, Some _ => settings_run f have rest t
  | _, _ => (RClose EFrameUnexpected, have)
  end.
Proof.
  intros Hwf Hl. cbn [settings_run]. rewrite (read_frame_async_known TUniRemote false fr rest t Hwf Hl).
  destruct have as [m|], fr as [[] p s]; reflexivity.
Qed.

Theorem settings_run_unknown_frame u p rest t f have :
  fkind_parse u = None -> u <= varint_max -> len p <= varint_max ->
  settings_run (S f) have (unknown_frame u p ++ rest) t = settings_run (S f) have rest t.
Proof.
  intros Hk Hu Hp. cbn [settings_run].
  rewrite (read_frame_async_skips_unknown _ _ _ _ _ _ Hk Hu Hp). reflexivity.
Qed.

Theorem settings_run_closed f have t :
  settings_run (S f) have [] t =
  (match t with Lost => RNotConnected | _ => RClose EClosedCriticalStream end, have).
Proof. destruct t; reflexivity. Qed.

Lemma uni_upgrade_async_known h rest t : sheader_wf h = true ->
  uni_upgrade_async (sheader_write h ++ rest) t = AUH3 h rest.
Proof.
  intros Hwf. unfold uni_upgrade_async.
  rewrite sheader_read_async_eq, (sheader_read_write h rest Hwf). reflexivity.
Qed.

Theorem uni_accept_wt c s rest t : session_ok s = true -> s <= varint_max ->
  uni_accept c (emit_uni_preamble s ++ rest) t = (RHandWT s rest, c).
Proof.
  intros Hs Hm. unfold uni_accept, emit_uni_preamble. rewrite uni_upgrade_async_known; [reflexivity|].
  apply andb_true_intro. split; [exact Hs|apply N.leb_le, Hm].
Qed.

Theorem uni_accept_duplicate_critical c k rest t :
  (k = SControl /\ has_control c = true) \/ (k = SQPackEncoder /\ has_enc c = true) \/
  (k = SQPackDecoder /\ has_dec c = true) ->
  uni_accept c (sheader_write (mksheader k None) ++ rest) t = (RClose EStreamCreation, c).
Proof.
  intros H. unfold uni_accept.
  destruct H as [[-> H]|[[-> H]|[-> H]]]; rewrite uni_upgrade_async_known by reflexivity;
    cbn [sk ssid]; rewrite H; reflexivity.
Qed.

Theorem close_code_registry :
  map to_code [EDatagram; ENoError; EStreamCreation; EClosedCriticalStream; EFrameUnexpected; EFrame;
               EExcessiveLoad; EId; ESettings; EMissingSettings; ERequestRejected; EMessage;
               EDecompression; EBufferedStreamRejected; ESessionGone]
  = [51; 256; 259; 260; 261; 262; 263; 264; 265; 266; 267; 270; 512; 966049156; 386759528].
Proof. reflexivity. Qed.

Theorem bi_accept_wt s rest t : session_ok s = true -> s <= varint_max ->
  bi_accept (emit_bi_preamble s ++ rest) t = RHandWT s rest.
Proof.
  intros Hs Hm. unfold bi_accept, emit_bi_preamble. unfold fuel_for at 1. cbn [bi_first_frame].
  rewrite (read_frame_async_known TBiRemote false _ rest t (wt_frame_wf s Hs Hm)) by discriminate.
  reflexivity.
Qed.

(* A GREASE frame before the signal: the accept task skips it, but the typestate has then seen a
   first frame, and a WebTransport signal that is not first is H3_FRAME_ERROR (stream.rs:213-229). *)
Theorem bi_accept_grease_then_wt id p s rest t :
  is_exercise id = true -> id <= varint_max -> len p <= max_parse_payload ->
  session_ok s = true -> s <= varint_max ->
  bi_accept (frame_write (mkframe (KExercise id) p None) ++ emit_bi_preamble s ++ rest) t = RClose EFrame.
Proof.
  intros Hx Hid Hl Hs Hm. unfold bi_accept, emit_bi_preamble. unfold fuel_for at 1. cbn [bi_first_frame].
  rewrite (read_frame_async_known TBiRemote false _ _ t (exercise_frame_wf id p Hx Hid) Hl).
  cbn [validate fk].
  (* the fuel left is the length of the input, which holds the GREASE frame *)
  rewrite app_length. pose proof (frame_write_pos (mkframe (KExercise id) p None)) as L.
  destruct (length (frame_write (mkframe (KExercise id) p None))); [inversion L|]. cbn [Nat.add bi_first_frame].
  rewrite (read_frame_async_known TBiRemote true _ rest t (wt_frame_wf s Hs Hm)) by discriminate.
  reflexivity.
Qed.

Theorem client_rest_after_response payload rest t : len payload <= max_parse_payload ->
  client_session_rest (frame_write (mkframe KHeaders payload None) ++ rest) t = Some rest.
Proof.
  intros Hl. unfold client_session_rest. unfold fuel_for at 1. cbn [response_first_frame].
  rewrite (read_frame_async_known TSession false (mkframe KHeaders payload None) rest t eq_refl Hl).
  reflexivity.
Qed.
