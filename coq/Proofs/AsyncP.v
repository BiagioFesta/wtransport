(* AsyncP.v -- the async readers agree with the sync readers (C15).
   The async readers of Model/Async.v are functions of the bytes and the terminal only: chunking /
   Pending invariance holds by construction, and Proofs/MachineP.v shows that the poll machines refine
   a_get_varint / a_get_buffer for every schedule. *)
From WT.Model Require Import Base Varint Ids Frame Async.
From WT.Proofs Require Import BaseP VarintP FrameP.
From Coq Require Import Lia.

Definition is_nil (d : bytes) : bool := match d with [] => true | _ => false end.

Lemma skipn_skipn {A} a : forall b (l : list A), skipn a (skipn b l) = skipn (b + a) l.
Proof.
  induction b as [|b IH]; intros l; [reflexivity|].
  destruct l as [|x l]; [rewrite !skipn_nil; reflexivity|]. cbn [skipn Nat.add]. apply IH.
Qed.

(* n = 0 is not a special case *)
Lemma a_get_buffer_eq {E} n d t :
  @a_get_buffer E n d t =
  if (length d <? n)%nat then AIo (eof_err t (is_nil d)) [] else AOk (firstn n d) (skipn n d).
Proof. destruct n; reflexivity. Qed.

Lemma a_get_buffer_app {E} p r t : @a_get_buffer E (length p) (p ++ r) t = AOk p r.
Proof.
  rewrite a_get_buffer_eq, firstn_app_exact, skipn_app_exact by reflexivity.
  replace (_ <? _)%nat with false; [reflexivity|].
  symmetry. apply Nat.ltb_ge. rewrite app_length. lia.
Qed.

Lemma a_get_buffer_short {E} n d t :
  (length d < n)%nat -> @a_get_buffer E n d t = AIo (eof_err t (is_nil d)) [].
Proof. intros H. apply Nat.ltb_lt in H. rewrite a_get_buffer_eq, H. reflexivity. Qed.

Lemma a_get_buffer_bytes_n {E} l d t : @a_get_buffer E (N.to_nat l) d t =
  match get_bytes_n l d with Some (p, r) => AOk p r | None => AIo (eof_err t (is_nil d)) [] end.
Proof.
  (* the same length test, once in nat and once in N *)
  rewrite a_get_buffer_eq, get_bytes_n_eq. destruct (N.ltb_spec (len d) l) as [Hlt|Hge]; unfold len in *.
  - rewrite (proj2 (Nat.ltb_lt _ _)) by lia. reflexivity.
  - rewrite (proj2 (Nat.ltb_ge _ _)) by lia. reflexivity.
Qed.

Lemma a_get_varint_cons {E} b d t :
  @a_get_varint E (b :: d) t =
  match @a_get_buffer E (parse_size b) (b :: d) t with
  | AOk p r => AOk (varint_of p) r
  | AParse e r => AParse e r
  | AIo e r => AIo e r
  end.
Proof.
  rewrite a_get_buffer_eq. unfold a_get_varint.
  destruct (_ <? _)%nat; reflexivity.
Qed.

Lemma a_get_varint_eq {E} d t : @a_get_varint E d t =
  match get_varint d with Some (v, r) => AOk v r | None => AIo (eof_err t (is_nil d)) [] end.
Proof.
  destruct d as [|b d]; [reflexivity|]. rewrite a_get_varint_cons.
  destruct (get_varint (b :: d)) as [[v r]|] eqn:G.
  - (* the bytes consumed are as many as the first byte announces, and GetBuffer returns those *)
    destruct (get_varint_some G) as (p & Hd & _ & S & Hl & _). cbn [hd] in Hl.
    rewrite <- Hl, Hd, a_get_buffer_app. unfold varint_of. rewrite <- (app_nil_r p), S. reflexivity.
  - unfold get_varint in G. rewrite a_get_buffer_eq.
    destruct (length (b :: d) <? parse_size b)%nat; [reflexivity|discriminate].
Qed.

Lemma map_imm_eof t b : map_imm (eof_err t b) = eof_err t false.
Proof. destruct t, b; reflexivity. Qed.

Lemma skip_loop_eq fuel : forall l d t, (length d < fuel)%nat ->
  skip_loop fuel l d t =
  if len d <? l then AIo (eof_err t false) [] else AParse PUnknown (skipn (N.to_nat l) d).
Proof.
  (* one chunk of n = min l 256 bytes, then the loop on l - n: it is short of data at l - n iff it was at l *)
  induction fuel as [|f IH]; intros l d t Hf; [lia|].
  cbn [skip_loop]. destruct (N.eqb_spec l 0) as [->|Hl]; [rewrite (proj2 (N.ltb_ge _ _)) by lia; reflexivity|].
  rewrite a_get_buffer_bytes_n, get_bytes_n_eq.
  (* a chunk is not empty, which is why the fuel lasts, and not more than is left to skip *)
  set (n := N.min l 256). assert (Hn : 0 < n <= l) by lia. clearbody n.
  destruct (N.ltb_spec (len d) n).
  - rewrite map_imm_eof, (proj2 (N.ltb_lt _ _)) by lia. reflexivity.
  - assert (Hs : len (skipn (N.to_nat n) d) = len d - n) by (unfold len; rewrite skipn_length; lia).
    rewrite IH, Hs by (unfold len in *; lia).
    destruct (N.ltb_spec (len d - n) (l - n)), (N.ltb_spec (len d) l); try lia; [reflexivity|].
    rewrite skipn_skipn. do 2 f_equal. lia.
Qed.

Theorem frame_read_async_eq bs t :
  frame_read_async bs t =
  match frame_read bs with
  | (RVal f, r) => AOk f r
  | (RErr e, r) => AParse e r
  | (RNone, _) => AIo (eof_err t (is_nil bs)) []
  end.
Proof.
  unfold frame_read, frame_read_async. rewrite a_get_varint_eq.
  destruct (get_varint bs) as [[id r1]|] eqn:E1; [|reflexivity].
  replace (is_nil bs) with false by (destruct bs; [discriminate|reflexivity]).
  (* every kind reads a second varint *)
  rewrite a_get_varint_eq.
  destruct (get_varint r1) as [[l r2]|]; [|rewrite map_imm_eof; destruct (fkind_parse id) as [[]|]; reflexivity].
  destruct (fkind_parse id) as [k|].
  - rewrite !fkind_match. destruct (is_wt k).
    + (* WebTransport *) destruct (session_ok l); reflexivity.
    + (* another known kind *)
      destruct (max_parse_payload <? l); [reflexivity|]. rewrite a_get_buffer_bytes_n.
      destruct (get_bytes_n l r2) as [[pp r3]|]; [reflexivity|rewrite map_imm_eof; reflexivity].
  - (* an unknown kind skips it *)
    rewrite skip_loop_eq, get_bytes_n_eq by lia. destruct (len r2 <? l); reflexivity.
Qed.

Theorem sheader_read_async_eq bs t :
  sheader_read_async bs t =
  match sheader_read bs with
  | (SVal h, r) => AOk h r
  | (SErr e, r) => AParse e r
  | (SNone, _) => AIo (eof_err t (is_nil bs)) []
  end.
Proof.
  unfold sheader_read, sheader_read_async. rewrite a_get_varint_eq.
  destruct (get_varint bs) as [[id r1]|] eqn:E1; [|reflexivity].
  replace (is_nil bs) with false by (destruct bs; [discriminate|reflexivity]).
  destruct (skind_parse id) as [[]|]; try reflexivity.
  rewrite a_get_varint_eq. destruct (get_varint r1) as [[s r2]|]; [|rewrite map_imm_eof; reflexivity].
  destruct (session_ok s); reflexivity.
Qed.

Lemma get_varint_app_none a b : get_varint (a ++ b) = None -> get_varint a = None.
Proof.
  intros H. destruct (get_varint a) as [[v r]|] eqn:E; [|reflexivity].
  rewrite (get_varint_ext b E) in H. discriminate.
Qed.
