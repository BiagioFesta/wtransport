(* FrameP.v -- the one-shot readers of frames and stream headers of Model/Frame.v: round trips, what a
   read leaves and when it is settled (frame_read_done, sheader_read_done), and that what the parsers
   return is well-formed *)
From WT.Model Require Import Base Varint Ids Frame.
From WT.Proofs Require Import BaseP VarintP.
From Coq Require Import Lia.

(* the inner length check of get_bytes never fires *)
Lemma get_bytes_n_eq n bs : get_bytes_n n bs =
  if len bs <? n then None else Some (firstn (N.to_nat n) bs, skipn (N.to_nat n) bs).
Proof.
  unfold get_bytes_n, get_bytes. destruct (N.ltb_spec (len bs) n); [reflexivity|].
  rewrite (proj2 (Nat.ltb_ge _ _)) by (unfold len in *; lia). reflexivity.
Qed.

Lemma get_bytes_n_app p r : get_bytes_n (len p) (p ++ r) = Some (p, r).
Proof.
  rewrite get_bytes_n_eq, len_app, (proj2 (N.ltb_ge _ _)) by lia. unfold len. rewrite Nat2N.id.
  rewrite firstn_app_exact, skipn_app_exact by reflexivity. reflexivity.
Qed.

Lemma get_bytes_n_split {n bs p r} : get_bytes_n n bs = Some (p, r) -> bs = p ++ r /\ len p = n.
Proof.
  rewrite get_bytes_n_eq. destruct (N.ltb_spec (len bs) n); [discriminate|].
  intros [= <- <-]. split; [symmetry; apply firstn_skipn|].
  unfold len in *. rewrite firstn_length. lia.
Qed.

Lemma get_bytes_n_none n bs : get_bytes_n n bs = None <-> len bs < n.
Proof.
  rewrite get_bytes_n_eq. destruct (N.ltb_spec (len bs) n); [tauto|]. split; [discriminate|lia].
Qed.

Lemma get_bytes_n_ext {n p} q {x r} : get_bytes_n n p = Some (x, r) -> get_bytes_n n (p ++ q) = Some (x, r ++ q).
Proof.
  intros H. destruct (get_bytes_n_split H) as [-> <-]. rewrite <- app_assoc. apply get_bytes_n_app.
Qed.

(* one more reader after a completed one that consumed p1: whatever it does, p1 counts as progress *)
Lemma prefix_step {p1 r1 r : bytes} {P Q : Prop} : p1 <> [] ->
  (exists p2, r1 = p2 ++ r /\ (P -> Q)) -> exists p, p1 ++ r1 = p ++ r /\ (P -> p <> [] /\ Q).
Proof.
  intros N1 (p2 & -> & H). exists (p1 ++ p2). split; [apply app_assoc|]. intros HP.
  split; [|exact (H HP)]. destruct p1; [congruence|discriminate].
Qed.

Lemma is_exercise_neq id c : is_exercise id = true -> is_exercise c = false -> (id =? c) = false.
Proof. intros H Hc. apply N.eqb_neq. intros ->. congruence. Qed.

Definition fkind_wf (k : fkind) : bool :=
  match k with KExercise id => is_exercise id | _ => true end.

Lemma fkind_parse_id k : fkind_wf k = true -> fkind_parse (fkind_id k) = Some k.
Proof.
  destruct k as [| | | |id]; try reflexivity. cbn [fkind_wf fkind_id]. intros H.
  unfold fkind_parse. rewrite !(is_exercise_neq id _ H), H by reflexivity. reflexivity.
Qed.

Lemma fkind_parse_some {id k} : fkind_parse id = Some k -> fkind_id k = id /\ fkind_wf k = true.
Proof.
  (* down the chain of comparisons: [id] is the known identifier, or we go on *)
  unfold fkind_parse. repeat (case N.eqb_spec; [intros -> [= <-]; auto|intros _]).
  destruct (is_exercise id) eqn:X; intros [= <-]. auto.
Qed.

(* a match that singles out WebTransport, as the readers and the writer have it, is a test *)
Definition is_wt (k : fkind) : bool := match k with KWebTransport => true | _ => false end.

Lemma fkind_match {A} k (a b : A) : match k with KWebTransport => a | _ => b end = if is_wt k then a else b.
Proof. destruct k; reflexivity. Qed.

Lemma plain_frame_wf k p : is_wt k = false -> fkind_wf k = true -> fkind_id k <= varint_max ->
  frame_wf (mkframe k p None) = true.
Proof.
  (* the fixed kinds have no condition, WebTransport is excluded, an exercise kind has the two given *)
  unfold frame_wf. destruct k; cbn [fk fsid fkind_wf fkind_id]; try reflexivity; [discriminate|].
  intros _ -> H. apply N.leb_le, H.
Qed.

Lemma exercise_frame_wf id p : is_exercise id = true -> id <= varint_max ->
  frame_wf (mkframe (KExercise id) p None) = true.
Proof. apply (plain_frame_wf (KExercise id)). reflexivity. Qed.

Lemma wt_frame_wf s : session_ok s = true -> s <= varint_max ->
  frame_wf (mkframe KWebTransport [] (Some s)) = true.
Proof. unfold frame_wf. cbn [fk fsid fpayload]. intros -> H. apply N.leb_le in H. rewrite H. reflexivity. Qed.

Lemma frame_wf_cases f : frame_wf f = true ->
  (exists s, f = mkframe KWebTransport [] (Some s) /\ session_ok s = true /\ s <= varint_max) \/
  (exists k p, f = mkframe k p None /\ is_wt k = false /\ fkind_wf k = true /\ fkind_id k <= varint_max).
Proof.
  unfold frame_wf. destruct f as [k p [s|]]; cbn [fk fsid fpayload]; intros H.
  - left. destruct k; try discriminate. destruct p; [|rewrite Bool.andb_false_r in H; discriminate].
    rewrite Bool.andb_true_r in H. apply andb_prop in H as [Hs Hm]. apply N.leb_le in Hm. eauto.
  - right. exists k, p. split; [reflexivity|].
    (* the fixed kinds ask nothing and have small ids, WebTransport wants a session id (H); an exercise
       kind is left *)
    destruct k; cbn [fkind_wf fkind_id]; try (repeat split; discriminate).
    apply andb_prop in H as [Hx Hm]. apply N.leb_le in Hm. split; [reflexivity|]. split; assumption.
Qed.

Theorem frame_write_length f : length (frame_write f) = frame_write_size f.
Proof.
  unfold frame_write, frame_write_size. destruct (fk f); destruct (fsid f);
    rewrite !app_length, !enc_length; (reflexivity || apply Nat.add_assoc).
Qed.

Lemma frame_write_pos f : (0 < length (frame_write f))%nat.
Proof. unfold frame_write. destruct (fk f), (fsid f); apply enc_app_pos. Qed.

Theorem frame_read_write f r :
  frame_wf f = true -> len (fpayload f) <= max_parse_payload ->
  frame_read (frame_write f ++ r) = (RVal f, r).
Proof.
  intros Hwf Hlen. unfold frame_read, frame_write.
  destruct (frame_wf_cases f Hwf) as [(s & -> & Hs & Hm)|(k & p & -> & Hk & Hkw & Hid)]; cbn [fk fsid fpayload] in *.
  - rewrite <- app_assoc, get_enc by (cbn; discriminate).
    change (fkind_parse _) with (Some KWebTransport). cbv iota. rewrite (get_enc _ _ Hm), Hs. reflexivity.
  - assert (Hp : len p <= varint_max) by (apply (N.le_trans _ _ _ Hlen); discriminate).
    apply N.ltb_ge in Hlen. rewrite fkind_match, Hk, <- !app_assoc, (get_enc _ _ Hid), (fkind_parse_id _ Hkw).
    rewrite fkind_match, Hk, (get_enc _ _ Hp), Hlen, get_bytes_n_app. reflexivity.
Qed.

Theorem frame_read_done bs q x r : frame_read bs = (x, r) ->
  exists p, bs = p ++ r /\ (x <> RNone -> p <> [] /\ frame_read (bs ++ q) = (x, r ++ q)).
Proof.
  unfold frame_read.
  destruct (get_varint bs) as [[id r1]|] eqn:E1; [|intros [= <- <-]; exists []; split; [reflexivity|congruence]].
  rewrite (get_varint_ext q E1). destruct (get_varint_suffix E1) as (p1 & -> & N1).
  intros H. apply (prefix_step N1). revert H.
  (* every kind reads a second varint, the payload length or the session id, and asks for more without it *)
  destruct (get_varint r1) as [[l r2]|] eqn:E2.
  2:{ destruct (fkind_parse id) as [[]|]; (intros [= <- <-]; exists []; split; [reflexivity|congruence]). }
  rewrite (get_varint_ext q E2). destruct (get_varint_suffix E2) as (p2 & -> & _).
  destruct (fkind_parse id) as [k|]; [rewrite !fkind_match; destruct (is_wt k)|].
  - (* WebTransport: it was the session id, and the read is over *)
    destruct (session_ok l); intros [= <- <-]; exists p2; split; reflexivity.
  - (* the other known kinds refuse a payload length that is too big, then read the payload *)
    destruct (max_parse_payload <? l); [intros [= <- <-]; exists p2; split; reflexivity|].
    destruct (get_bytes_n l r2) as [[pp r3]|] eqn:E3; [|intros [= <- <-]; exists p2; split; [reflexivity|congruence]].
    rewrite (get_bytes_n_ext q E3). destruct (get_bytes_n_split E3) as [-> _].
    intros [= <- <-]. exists (p2 ++ pp). split; [apply app_assoc|reflexivity].
  - (* an unknown kind reads the payload *)
    destruct (get_bytes_n l r2) as [[pp r3]|] eqn:E3; [|intros [= <- <-]; exists p2; split; [reflexivity|congruence]].
    rewrite (get_bytes_n_ext q E3). destruct (get_bytes_n_split E3) as [-> _].
    intros [= <- <-]. exists (p2 ++ pp). split; [apply app_assoc|reflexivity].
Qed.

Corollary frame_read_suffix bs x r : frame_read bs = (x, r) -> exists p, bs = p ++ r.
Proof. intros H. destruct (frame_read_done bs [] x r H) as (p & Hp & _). eauto. Qed.

Corollary frame_read_progress bs x r :
  frame_read bs = (x, r) -> x <> RNone -> (length r < length bs)%nat.
Proof.
  intros H Hx. destruct (frame_read_done bs [] x r H) as (p & Hp & D). destruct (D Hx) as [Np _].
  rewrite Hp, app_length. destruct p; [congruence|cbn; lia].
Qed.

Corollary frame_read_ext p q x r : frame_read p = (x, r) -> x <> RNone -> frame_read (p ++ q) = (x, r ++ q).
Proof. intros H Hx. destruct (frame_read_done p q x r H) as (p' & _ & D). apply D, Hx. Qed.

(* as VarintP.get_varint_needs_all *)
Corollary frame_read_needs_all c p1 p2 r x : c = p1 ++ p2 -> frame_read (c ++ r) = (x, r) -> p2 <> [] ->
  fst (frame_read p1) = RNone.
Proof.
  intros -> W Hq. rewrite <- app_assoc in W. destruct (frame_read p1) as [y r'] eqn:E. cbn [fst].
  assert (C : y <> RNone -> False).
  { intros Hy. rewrite (frame_read_ext _ (p2 ++ r) _ _ E Hy) in W. injection W as _ W.
    exact (Hq (app_inv_tail_nil W)). }
  destruct y; [destruct C; discriminate|reflexivity|destruct C; discriminate].
Qed.

Corollary frame_read_prefix f p q :
  frame_wf f = true -> len (fpayload f) <= max_parse_payload ->
  frame_write f = p ++ q -> q <> [] -> fst (frame_read p) = RNone.
Proof.
  intros Hwf Hl Hw. exact (frame_read_needs_all _ p q [] (RVal f) Hw (frame_read_write f [] Hwf Hl)).
Qed.

Theorem frame_read_wf bs f r :
  frame_read bs = (RVal f, r) -> frame_wf f = true /\ len (fpayload f) <= max_parse_payload.
Proof.
  unfold frame_read.
  destruct (get_varint bs) as [[id r1]|] eqn:E1; [|discriminate]. apply get_varint_range in E1.
  destruct (get_varint r1) as [[l r2]|] eqn:E2; [|destruct (fkind_parse id) as [[]|]; discriminate].
  (* an unknown kind gives no value *)
  destruct (fkind_parse id) as [k|] eqn:EK; [|destruct (get_bytes_n l r2) as [[]|]; discriminate].
  destruct (fkind_parse_some EK) as [<- Hkw]. rewrite fkind_match. destruct (is_wt k) eqn:W.
  - destruct (session_ok l) eqn:ES; [|discriminate]. intros [= <- <-].
    split; [exact (wt_frame_wf _ ES (get_varint_range _ _ _ E2))|discriminate].
  - destruct (N.ltb_spec max_parse_payload l); [discriminate|].
    destruct (get_bytes_n l r2) as [[pp r3]|] eqn:E3; [|discriminate].
    destruct (get_bytes_n_split E3) as [_ Hl]. intros [= <- <-]. cbn [fpayload].
    split; [exact (plain_frame_wf _ _ W Hkw E1)|rewrite Hl; assumption].
Qed.

Theorem frame_read_from_buffer_value buf off f o :
  frame_read_from_buffer buf off = (RVal f, o) ->
  exists r, frame_read (skipn off buf) = (RVal f, r) /\ (o = length buf - length r)%nat /\ (off < o <= length buf)%nat.
Proof.
  unfold frame_read_from_buffer.
  destruct (frame_read (skipn off buf)) as [[g| |e] r] eqn:E; intros [= <- <-].
  exists r. split; [reflexivity|]. split; [reflexivity|].
  pose proof (frame_read_progress _ _ _ E ltac:(discriminate)) as P.
  rewrite skipn_length in P. lia.
Qed.

Definition skind_wf (k : skind) : bool :=
  match k with SExercise id => is_exercise id | _ => true end.

Lemma skind_parse_id k : skind_wf k = true -> skind_parse (skind_id k) = Some k.
Proof.
  destruct k as [| | | |id]; try reflexivity. cbn [skind_wf skind_id]. intros H.
  unfold skind_parse. rewrite !(is_exercise_neq id _ H), H by reflexivity. reflexivity.
Qed.

Lemma skind_parse_some {id k} : skind_parse id = Some k -> skind_id k = id /\ skind_wf k = true.
Proof.
  unfold skind_parse. repeat (case N.eqb_spec; [intros -> [= <-]; auto|intros _]).
  destruct (is_exercise id) eqn:X; intros [= <-]. auto.
Qed.

Theorem sheader_write_length h : length (sheader_write h) = sheader_write_size h.
Proof.
  unfold sheader_write, sheader_write_size. destruct (sk h); destruct (ssid h);
    rewrite ?app_length, !enc_length; reflexivity.
Qed.

Theorem sheader_read_write h r : sheader_wf h = true -> sheader_read (sheader_write h ++ r) = (SVal h, r).
Proof.
  unfold sheader_wf, sheader_read, sheader_write. destruct h as [k s]. cbn [sk ssid].
  destruct k as [| | | |id]; destruct s as [s|]; try discriminate; intros H;
    try (rewrite get_enc by (cbn; discriminate); reflexivity).
  - (* WebTransport: the session id follows *)
    apply andb_prop in H as [Hs Hm]. apply N.leb_le in Hm.
    rewrite <- app_assoc, get_enc by (cbn; discriminate).
    change (skind_parse _) with (Some SWebTransport). cbv iota.
    rewrite (get_enc _ _ Hm), Hs. reflexivity.
  - (* a GREASE type: its id is the only varint *)
    apply andb_prop in H as [Hx Hm]. apply N.leb_le in Hm.
    pose proof (skind_parse_id (SExercise id) Hx) as P. cbn [skind_id] in *.
    rewrite (get_enc _ _ Hm), P. reflexivity.
Qed.

Theorem sheader_read_done bs q x r : sheader_read bs = (x, r) ->
  exists p, bs = p ++ r /\ (x <> SNone -> p <> [] /\ sheader_read (bs ++ q) = (x, r ++ q)).
Proof.
  unfold sheader_read.
  destruct (get_varint bs) as [[id r1]|] eqn:E1; [|intros [= <- <-]; exists []; split; [reflexivity|congruence]].
  rewrite (get_varint_ext q E1). destruct (get_varint_suffix E1) as (p1 & -> & N1).
  intros H. apply (prefix_step N1). revert H.
  (* only WebTransport reads on: the session id *)
  destruct (skind_parse id) as [[]|]; try (intros [= <- <-]; exists []; split; reflexivity).
  destruct (get_varint r1) as [[s r2]|] eqn:E2; [|intros [= <- <-]; exists []; split; [reflexivity|congruence]].
  rewrite (get_varint_ext q E2). destruct (get_varint_suffix E2) as (p2 & -> & _).
  destruct (session_ok s); intros [= <- <-]; exists p2; split; reflexivity.
Qed.

Theorem sheader_read_suffix bs x r : sheader_read bs = (x, r) -> exists p, bs = p ++ r.
Proof. intros H. destruct (sheader_read_done bs [] x r H) as (p & Hp & _). eauto. Qed.

Corollary sheader_read_ext p q x r : sheader_read p = (x, r) -> x <> SNone -> sheader_read (p ++ q) = (x, r ++ q).
Proof. intros H Hx. destruct (sheader_read_done p q x r H) as (p' & _ & D). apply D, Hx. Qed.

Corollary sheader_read_needs_all c p1 p2 r x : c = p1 ++ p2 -> sheader_read (c ++ r) = (x, r) -> p2 <> [] ->
  fst (sheader_read p1) = SNone.
Proof.
  intros -> W Hq. rewrite <- app_assoc in W. destruct (sheader_read p1) as [y r'] eqn:E. cbn [fst].
  assert (C : y <> SNone -> False).
  { intros Hy. rewrite (sheader_read_ext _ (p2 ++ r) _ _ E Hy) in W. injection W as _ W.
    exact (Hq (app_inv_tail_nil W)). }
  destruct y; [destruct C; discriminate|reflexivity|destruct C; discriminate].
Qed.

Corollary sheader_read_prefix h p q :
  sheader_wf h = true -> sheader_write h = p ++ q -> q <> [] -> fst (sheader_read p) = SNone.
Proof.
  intros Hwf Hw. exact (sheader_read_needs_all _ p q [] (SVal h) Hw (sheader_read_write h [] Hwf)).
Qed.

Theorem sheader_read_wf bs h r : sheader_read bs = (SVal h, r) -> sheader_wf h = true.
Proof.
  unfold sheader_read.
  destruct (get_varint bs) as [[id r1]|] eqn:E1; [|discriminate]. apply get_varint_range in E1.
  destruct (skind_parse id) as [k|] eqn:EK; [|discriminate].
  destruct (skind_parse_some EK) as [<- Hkw].
  destruct k; try (intros [= <- <-]; reflexivity).
  - (* WebTransport: the session id passed session_ok and is a varint *)
    destruct (get_varint r1) as [[s r2]|] eqn:E2; [|discriminate]. apply get_varint_range in E2.
    destruct (session_ok s) eqn:ES; [|discriminate].
    intros [= <- <-]. unfold sheader_wf. cbn [sk ssid]. apply N.leb_le in E2. rewrite ES, E2. reflexivity.
  - (* a GREASE type: recognised by skind_parse, and a varint *)
    intros [= <- <-]. unfold sheader_wf. cbn [sk ssid skind_wf skind_id] in *.
    apply N.leb_le in E1. rewrite Hkw, E1. reflexivity.
Qed.
