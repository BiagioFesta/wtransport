(* QpackP.v -- Model/Qpack.v: static table soundness, prefix integers (totality, no silent wrap, round
   trip), totality of the section decoder, header maps. *)
From WT.Model Require Import Base Frame Wire HuffmanTable StaticTable Qpack.
From WT.Proofs Require Import BaseP FrameP.
From Coq Require Import Lia Permutation.

Lemma huff_codes_consistent : huff_codes = huff_codes_computed.
Proof. vm_compute. reflexivity. Qed.

Lemma huff_table_length : length huff_table = 257%nat /\ length static_table = 99%nat.
Proof. split; reflexivity. Qed.

Lemma pow2_nz n : 2 ^ n <> 0.
Proof. apply N.pow_nonzero. discriminate. Qed.

Lemma land_mask b n : N.land b (2 ^ n - 1) = b mod 2 ^ n.
Proof. rewrite N.sub_1_r, <- N.ones_equiv. apply N.land_ones. Qed.

Lemma land127 x : N.land x 127 = x mod 128.
Proof. exact (land_mask x 7). Qed.

Lemma land128 x : x < 256 -> (N.land x 128 =? 0) = (x <? 128).
Proof.
  intros H. apply Bool.eqb_prop. revert x H.
  apply (forallb_below (fun x => Bool.eqb (N.land x 128 =? 0) (x <? 128)) 256). vm_compute. reflexivity.
Qed.

Lemma lor_shifted a n w : w < 2 ^ n -> N.lor (a * 2 ^ n) w = a * 2 ^ n + w.
Proof.
  intros Hw.
  (* no bit in common: those of a * 2 ^ n are at n and above, those of w below n *)
  assert (D : N.land (a * 2 ^ n) w = 0).
  { apply N.bits_inj_0. intros m. rewrite N.land_spec, <- N.shiftl_mul_pow2, <- (N.mod_small w (2 ^ n) Hw).
    destruct (N.lt_ge_cases m n) as [L|L].
    - rewrite N.shiftl_spec_low by exact L. reflexivity.
    - rewrite N.mod_pow2_bits_high by exact L. apply Bool.andb_false_r. }
  rewrite N.add_nocarry_lxor, N.lxor_lor by exact D. reflexivity.
Qed.

(* checked_shl, then shifting back and comparing: if the test passes, no bit was lost, since
   c * d <= (c * d) mod M <= c * d *)
Lemma shl_check c d M : d <> 0 -> M <> 0 -> (c * d) mod M / d = c -> (c * d) mod M = c * d.
Proof.
  intros Hd HM E. apply N.le_antisymm; [apply N.mod_le, HM|].
  rewrite <- E at 1. rewrite N.mul_comm. apply N.mul_div_le, Hd.
Qed.

(* the entries passed so far are [pre]: the index counts from the head of the whole table *)
Lemma lookup_index_from_spec t k v : forall pre,
  match lookup_index_from (N.of_nat (length pre)) t k v with
  | LKeyValue j => nth_error (pre ++ t) (N.to_nat j) = Some (k, v)
  | LKeyOnly j => exists v', nth_error (pre ++ t) (N.to_nat j) = Some (k, v')
  | LNone => forall kv, In kv t -> fst kv <> k
  end.
Proof.
  induction t as [|[k' v'] t IH]; intros pre; cbn [lookup_index_from]; [intros kv []|].
  assert (Here : nth_error (pre ++ (k', v') :: t) (N.to_nat (N.of_nat (length pre))) = Some (k', v')).
  { rewrite Nat2N.id, nth_error_app2, Nat.sub_diag by reflexivity. reflexivity. }
  destruct (list_eqb_spec k k') as [->|Hk].
  - destruct (list_eqb_spec v v') as [->|_]; [exact Here|exists v'; exact Here].
  - specialize (IH (pre ++ [(k', v')])). rewrite app_length, Nat2N.inj_add, <- app_assoc in IH.
    destruct (lookup_index_from _ t k v); [exact IH|exact IH|].
    intros kv [<-|Hin]; [exact (fun E => Hk (eq_sym E))|exact (IH kv Hin)].
Qed.

Lemma lookup_field_nth {i kv} : nth_error static_table (N.to_nat i) = Some kv -> lookup_field i = Some kv.
Proof.
  intros H. unfold lookup_field. rewrite H.
  assert (N.to_nat i < length static_table)%nat by (apply nth_error_Some; congruence).
  rewrite (proj2 (N.ltb_lt _ _)) by lia. reflexivity.
Qed.

Lemma lookup_field_bound i kv : lookup_field i = Some kv -> i < 99.
Proof.
  unfold lookup_field. change (N.of_nat (length static_table)) with 99.
  destruct (N.ltb_spec i 99); [intros _; assumption|discriminate].
Qed.

Theorem lookup_index_sound k v :
  match lookup_index k v with
  | LKeyValue i => lookup_field i = Some (k, v)
  | LKeyOnly i => exists v', lookup_field i = Some (k, v')
  | LNone => True
  end.
Proof.
  unfold lookup_index. pose proof (lookup_index_from_spec static_table k v []) as H. cbn [app length N.of_nat] in H.
  destruct (lookup_index_from 0 static_table k v); [| |exact I].
  - exact (lookup_field_nth H).
  - destruct H as [w H]. exists w. exact (lookup_field_nth H).
Qed.

(* the number a run of bytes denotes: 7 bits each, the first at 2 ^ power *)
Fixpoint groups_val (power : N) (p : bytes) : N :=
  match p with
  | [] => 0
  | b :: r => N.land b 127 * 2 ^ power + groups_val (power + 7) r
  end.

(* one walk of the loop for both of its properties: the value, and that it runs out of fuel only when given
   no more fuel than bytes, which dec_int never does *)
Theorem dec_int_rest_spec fuel : forall value power bs,
  match dec_int_rest fuel value power bs with
  | Val (v, r) => exists p, bs = p ++ r /\ p <> [] /\ v = value + groups_val power p /\ v < two64
  | Err _ => True
  | OutOfFuel => (fuel <= length bs)%nat
  | _ => False
  end.
Proof.
  induction fuel as [|fuel IH]; intros value power bs; [apply Nat.le_0_l|].
  cbn [dec_int_rest]. destruct bs as [|b t]; [exact I|].
  destruct (64 <=? power); [exact I|].
  destruct (N.eqb_spec ((N.land b 127 * 2 ^ power) mod two64 / 2 ^ power) (N.land b 127)) as [EL|_]; [|exact I].
  rewrite (shl_check _ _ two64 (pow2_nz power) (pow2_nz 64) EL). cbn [negb].
  destruct (N.leb_spec two64 (value + N.land b 127 * 2 ^ power)) as [_|EO]; [exact I|].
  destruct (N.land b 128 =? 0).
  - (* the last byte *)
    exists [b]. cbn [groups_val app]. rewrite N.add_0_r. repeat split; [discriminate|exact EO].
  - (* a continuation byte: b in front of what the rest of the loop consumes *)
    specialize (IH (value + N.land b 127 * 2 ^ power) (power + 7) t).
    destruct (dec_int_rest fuel _ _ t) as [[v r]| | | |]; try exact IH; [|cbn [length]; lia]. (* left: Val, OutOfFuel *)
    destruct IH as (p & -> & Hp & -> & Hv).
    exists (b :: p). cbn [groups_val app]. rewrite N.add_assoc. repeat split; [discriminate|exact Hv].
Qed.

Theorem dec_int_total n bs : n <= 8 ->
  match dec_int n bs with
  | Val (_, v, r) => (length r < length bs)%nat /\ v < two64
  | Err _ => True
  | _ => False
  end.
Proof.
  intros Hn. unfold dec_int. destruct bs as [|b r]; [exact I|].
  destruct (negb (N.land b (2 ^ n - 1) =? 2 ^ n - 1)).
  - (* the value is in the prefix, below 2 ^ n *)
    cbn [length]. split; [lia|].
    rewrite land_mask. apply N.lt_trans with (2 ^ n); [apply N.mod_lt, pow2_nz|apply (N.pow_lt_mono_r 2 n 64); lia].
  - (* continuation bytes follow; the fuel S (length r) is not exhausted *)
    pose proof (dec_int_rest_spec (S (length r)) (N.land b (2 ^ n - 1)) 0 r) as T.
    destruct (dec_int_rest (S (length r)) _ 0 r) as [[v r']| | | |]; try exact T; [|lia].
    destruct T as (p & -> & _ & _ & Hv). split; [|exact Hv]. cbn [length]. rewrite app_length. lia.
Qed.

Lemma dec_int_rest_step f value power b r :
  b < 256 -> power < 64 -> value + b mod 128 * 2 ^ power < two64 ->
  dec_int_rest (S f) value power (b :: r) =
  if b <? 128 then Val (value + b mod 128 * 2 ^ power, r)
  else dec_int_rest f (value + b mod 128 * 2 ^ power) (power + 7) r.
Proof.
  intros Hb Hp Hv. cbn [dec_int_rest]. rewrite land127, (land128 b Hb).
  rewrite (proj2 (N.leb_gt 64 power) Hp), (N.mod_small (b mod 128 * 2 ^ power)) by lia.
  rewrite N.div_mul, N.eqb_refl by apply pow2_nz. cbn [negb].
  rewrite (proj2 (N.leb_gt _ _) Hv). reflexivity.
Qed.

Lemma dec_enc_rest f : forall rem f2 value power tail, (0 < f)%nat ->
  rem < 128 ^ N.of_nat f -> power < 64 -> value + rem * 2 ^ power < two64 ->
  (length (enc_int_rest f rem ++ tail) < f2)%nat ->
  dec_int_rest f2 value power (enc_int_rest f rem ++ tail) = Val (value + rem * 2 ^ power, tail).
Proof.
  induction f as [|f IH]; intros rem f2 value power tail Hf Hr Hp Hv Hl; [lia|].
  cbn [enc_int_rest] in *. destruct f2 as [|f2]; [lia|].
  destruct (N.leb_spec 128 rem) as [Hge|Hlt]; cbn [app length] in Hl |- *.
  - (* a continuation byte.  From 128 <= rem: the next position is in range, as 2 ^ (power + 7) <= rem * 2 ^ power,
       and the encoder has fuel left, as rem < 128 ^ 1 otherwise. *)
    assert (Hp' : power + 7 < 64).
    { apply (N.pow_lt_mono_r_iff 2); [reflexivity|]. change (2 ^ 64) with two64. rewrite N.pow_add_r, N.mul_comm.
      apply N.le_lt_trans with (rem * 2 ^ power); [apply N.mul_le_mono_r, Hge|clear - Hv; lia]. }
    assert (Hf' : (0 < f)%nat).
    { destruct f; [|apply Nat.lt_0_succ]. change (128 ^ N.of_nat 1) with 128 in Hr. lia. }
    rewrite Nat2N.inj_succ, N.pow_succ_r' in Hr. apply N.div_lt_upper_bound in Hr; [|discriminate].
    (* with rem = 128 * q + c the group c is added at [power] and q is read at power + 7 *)
    set (c := rem mod 128). set (q := rem / 128) in *.
    assert (Hc : c < 128) by (apply N.mod_lt; discriminate).
    assert (Er : value + rem * 2 ^ power = value + c * 2 ^ power + q * 2 ^ (power + 7)).
    { rewrite (N.div_mod rem 128) at 1 by discriminate. fold c q. rewrite N.pow_add_r. change (2 ^ 7) with 128. ring. }
    rewrite Er in *.
    assert (Ec : (c + 128) mod 128 = c) by exact (eq_trans (N.mod_add c 1 128 ltac:(discriminate)) (N.mod_small c 128 Hc)).
    rewrite dec_int_rest_step, Ec; [|clear - Hc; lia|exact Hp|rewrite Ec; clear - Hv; lia].
    rewrite (proj2 (N.ltb_ge (c + 128) 128)) by apply N.le_add_l.
    apply IH; try assumption. apply Nat.succ_lt_mono, Hl.
  - rewrite dec_int_rest_step, (N.mod_small rem 128), (proj2 (N.ltb_lt _ _)) by (rewrite ?N.mod_small; lia).
    reflexivity.
Qed.

Lemma prefix_byte n fl w : n <= 8 -> fl < 2 ^ (8 - n) -> w < 2 ^ n ->
  N.lor ((fl * 2 ^ n) mod 256) w = fl * 2 ^ n + w /\
  ((fl * 2 ^ n + w) / 2 ^ n) mod 256 = fl /\ N.land (fl * 2 ^ n + w) (2 ^ n - 1) = w.
Proof.
  intros Hn Hf Hw.
  pose proof (pow2_nz n) as HP.
  assert (Hs : fl * 2 ^ n < 2 ^ (8 - n) * 2 ^ n) by (apply N.mul_lt_mono_pos_r; lia).
  rewrite <- N.pow_add_r, N.sub_add in Hs by exact Hn. change (2 ^ 8) with 256 in Hs.
  split; [|split].
  - rewrite (N.mod_small _ _ Hs). apply lor_shifted, Hw.
  - rewrite N.div_add_l, (N.div_small w), N.add_0_r by assumption. apply N.mod_small.
    apply N.le_lt_trans with (fl * 2 ^ n); [|exact Hs]. rewrite <- (N.mul_1_r fl) at 1. apply N.mul_le_mono_l. lia.
  - rewrite land_mask, N.add_comm, N.mod_add by exact HP. apply N.mod_small, Hw.
Qed.

Lemma enc_int_eq n fl v : n <= 8 -> fl < 2 ^ (8 - n) ->
  enc_int n fl v = (fl * 2 ^ n + N.min v (2 ^ n - 1))
                   :: (if v <? 2 ^ n - 1 then [] else enc_int_rest 11 (v - (2 ^ n - 1))).
Proof.
  intros Hn Hf. unfold enc_int.
  rewrite <- (proj1 (prefix_byte n fl (N.min v (2 ^ n - 1)) Hn Hf ltac:(lia))).
  destruct (N.ltb_spec v (2 ^ n - 1)); [rewrite N.min_l by lia|rewrite N.min_r by assumption]; reflexivity.
Qed.

Theorem dec_enc_int n fl v tail : n <= 8 -> fl < 2 ^ (8 - n) -> v < two64 ->
  dec_int n (enc_int n fl v ++ tail) = Val (fl, v, tail).
Proof.
  intros Hn Hf Hv. rewrite enc_int_eq by assumption. unfold dec_int. cbn [app].
  destruct (prefix_byte n fl (N.min v (2 ^ n - 1)) Hn Hf ltac:(lia)) as (_ & -> & ->).
  destruct (N.ltb_spec v (2 ^ n - 1)).
  - rewrite N.min_l, (proj2 (N.eqb_neq _ _)) by lia. reflexivity.
  - rewrite N.min_r, N.eqb_refl by lia. cbn [negb].
    (* 11 is the fuel enc_int gives enc_int_rest (Model/Qpack.v): eleven groups of 7 bits hold any v < 2^64 *)
    assert (Hr : v - (2 ^ n - 1) < 128 ^ N.of_nat 11).
    { assert (two64 <= 128 ^ N.of_nat 11) by (vm_compute; discriminate). lia. }
    assert (E : 2 ^ n - 1 + (v - (2 ^ n - 1)) * 2 ^ 0 = v) by (rewrite N.pow_0_r; lia).
    rewrite (dec_enc_rest 11 _ _ _ 0 tail (Nat.lt_0_succ _) Hr eq_refl), E;
      [reflexivity|rewrite E; exact Hv|apply Nat.lt_succ_diag_r].
Qed.

(* the prefix widths of RFC 9204, as the statements for the properties list them *)
Lemma width_le_8 n : In n [1; 2; 3; 4; 5; 6; 7; 8] -> n <= 8.
Proof. cbn [In]. lia. Qed.

Lemma dec_str_total n bs : n <= 8 ->
  match dec_str n bs with
  | Val (_, r) => (length r < length bs)%nat
  | Err _ => True
  | _ => False
  end.
Proof.
  intros Hn. unfold dec_str. pose proof (dec_int_total n bs Hn) as T.
  destruct (dec_int n bs) as [[[fl l] r]| | | |]; auto.
  destruct T as [T _].
  destruct (get_bytes_n l r) as [[data r']|] eqn:E; [|exact I].
  destruct (get_bytes_n_split E) as [-> _].
  destruct (if N.odd fl then hdecode data else Some data) as [s|]; [|exact I].
  destruct (utf8_valid s); [|exact I]. rewrite app_length in T. lia.
Qed.

Lemma lift_total {A B} {P : A -> Prop} {r : res A qerr} {k : A -> res B qerr} :
  match r with Val a => P a | Err _ => True | _ => False end ->
  (forall a, P a -> match k a with Val _ | Err _ => True | _ => False end) ->
  match lift r k with Val _ | Err _ => True | _ => False end.
Proof. intros H K. destruct r as [a| | | |]; cbn [lift]; try exact H. exact (K a H). Qed.

Lemma dec_fields_total fuel : forall bs m, (length bs < fuel)%nat ->
  match dec_fields fuel bs m with
  | Val _ => True | Err _ => True | _ => False
  end.
Proof.
  induction fuel as [|fuel IH]; intros bs m Hf; [lia|].
  cbn [dec_fields]. destruct bs as [|b t]; [exact I|].
  destruct (field_line_type b); try exact I.
  (* the three line types the decoder accepts: indexed, literal with name reference, literal name *)
  - destruct (N.land b 64 =? 0); [exact I|].
    apply (lift_total (dec_int_total 6 (b :: t) ltac:(lia))). intros [[fl i] r] [Hr _].
    destruct (lookup_field i) as [[k v]|]; [|exact I]. apply IH. lia.
  - destruct (N.land b 16 =? 0); [exact I|].
    apply (lift_total (dec_int_total 4 (b :: t) ltac:(lia))). intros [[fl i] r] [Hr _].
    destruct (lookup_field i) as [[k v]|]; [|exact I].
    apply (lift_total (dec_str_total 7 r ltac:(lia))). intros [v' r'] Hr'. apply IH. lia.
  - apply (lift_total (dec_str_total 3 (b :: t) ltac:(lia))). intros [k r] Hr.
    apply (lift_total (dec_str_total 7 r ltac:(lia))). intros [v' r'] Hr'. apply IH. lia.
Qed.

Theorem qpack_decode_total bs :
  match qpack_decode bs with Val _ => True | Err _ => True | _ => False end.
Proof.
  unfold qpack_decode.
  apply (lift_total (dec_int_total 8 bs ltac:(lia))). intros [[f1 v1] r1] _.
  apply (lift_total (dec_int_total 7 r1 ltac:(lia))). intros [[f2 v2] r2] _.
  apply dec_fields_total. lia.
Qed.

(* hget / hinsert: the first entry of a key is the one that counts, so a map with distinct keys is
   determined by its set of entries *)
Theorem hget_hinsert_same k v m : hget k (hinsert k v m) = Some v.
Proof.
  induction m as [|[k' v'] m IH]; cbn [hinsert hget]; [rewrite list_eqb_refl; reflexivity|].
  destruct (list_eqb k k') eqn:E; cbn [hget]; [rewrite list_eqb_refl; reflexivity|rewrite E; exact IH].
Qed.

Theorem hget_hinsert_other k k2 v m : k2 <> k -> hget k2 (hinsert k v m) = hget k2 m.
Proof.
  intros Hne. apply list_eqb_neq in Hne.
  induction m as [|[k' v'] m IH]; cbn [hinsert hget]; [rewrite Hne; reflexivity|].
  destruct (list_eqb_spec k k') as [<-|_]; cbn [hget]; [rewrite Hne|rewrite IH]; reflexivity.
Qed.

Lemma hinsert_fresh k v m : ~ In k (map fst m) -> hinsert k v m = m ++ [(k, v)].
Proof.
  induction m as [|[k' v'] m IH]; intros H; [reflexivity|]. cbn [hinsert map fst In app] in *.
  destruct (list_eqb_spec k k') as [->|_]; [tauto|]. rewrite IH by tauto. reflexivity.
Qed.

Lemma hget_none_notin k m : hget k m = None -> ~ In k (map fst m).
Proof.
  induction m as [|[k' v'] m IH]; cbn [hget map fst In]; [tauto|].
  destruct (list_eqb_spec k k') as [->|Hk]; [discriminate|]. intros H [E|Hin]; [exact (Hk (eq_sym E))|exact (IH H Hin)].
Qed.

Lemma hget_in l : NoDup (map fst l) -> forall k v, hget k l = Some v <-> In (k, v) l.
Proof.
  induction l as [|[k' v'] l IH]; intros Hnd k v; cbn [hget In]; [split; [discriminate|tauto]|].
  inversion Hnd as [|? ? Hnotin Hnd'].
  destruct (list_eqb_spec k k') as [->|Hk].
  - (* the first entry has key k; another one further down would be a second key k *)
    split; [intros [= ->]; left; reflexivity|]. intros [[= ->]|Hin]; [reflexivity|].
    destruct Hnotin. exact (in_map fst _ _ Hin).
  - rewrite (IH Hnd'). split; [tauto|]. intros [[= E _]|Hin]; [destruct (Hk (eq_sym E))|exact Hin].
Qed.

Lemma hget_perm l1 l2 : Permutation l1 l2 -> NoDup (map fst l1) -> forall k, hget k l1 = hget k l2.
Proof.
  intros Hp Hnd k.
  assert (Hnd2 : NoDup (map fst l2)) by (eapply Permutation_NoDup; [apply Permutation_map; exact Hp|exact Hnd]).
  (* both lookups say whether (k, v) is an entry, and the entries are the same *)
  assert (E : forall v, hget k l1 = Some v <-> hget k l2 = Some v).
  { intros v. rewrite (hget_in l1 Hnd), (hget_in l2 Hnd2). split; apply Permutation_in; [|symmetry]; exact Hp. }
  destruct (hget k l1) as [v|]; [symmetry; apply E; reflexivity|].
  destruct (hget k l2) as [v|]; [apply E; reflexivity|reflexivity].
Qed.
