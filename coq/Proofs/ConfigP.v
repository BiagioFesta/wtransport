(* ConfigP.v -- C20: for every chain of setter calls, build() yields a configuration exactly when every
   requested idle timeout is representable, and then each field holds what the LAST call of its setter
   asked for (quinn's default when there was none). *)
From WT.Model Require Import Base Tls Config.

Theorem cbuild_spec ops : forall c,
  cbuild c ops = if forallb idle_ok ops
                 then Some (mktcfg (last_idle ops (t_idle c)) (last_keep ops (t_keep c)) (last_migr ops (t_migr c)))
                 else None.
Proof.
  induction ops as [|o ops IH]; intros c; cbn [cbuild forallb last_idle last_keep last_migr].
  - destruct c; reflexivity.
  - destruct o as [[[s n]|]|k|b]; cbn [capply idle_ok andb]; try (rewrite IH; reflexivity).
    unfold idle_accept. destruct (idle_ms s n <? two62); [rewrite IH|]; reflexivity.
Qed.

(* the premise under which two calls commute in Props/C20.v *)
Definition same_setter (a b : cfgop) : bool :=
  match a, b with SetIdle _, SetIdle _ | SetKeep _, SetKeep _ | SetMigr _, SetMigr _ => true | _, _ => false end.

(* a keep-alive set before max_idle_timeout survives it (what seeded change C20-3, DESIGN.md 10, broke) *)
Corollary keep_alive_survives_idle c k d c' :
  cbuild c [SetKeep k; SetIdle d] = Some c' -> t_keep c' = k.
Proof.
  rewrite cbuild_spec. destruct (forallb idle_ok [SetKeep k; SetIdle d]); [|discriminate].
  intros [= <-]. reflexivity.
Qed.

Example config_example :
  cbuild tdefault [SetKeep (Some 250); SetIdle None; SetMigr false; SetIdle (Some (2, 500000000))]
  = Some (mktcfg (Some 2500) (Some 250) false) /\
  cbuild tdefault [SetKeep (Some 1); SetIdle (Some (4611686018427387, 904000000)); SetKeep None] = None /\
  cbuild tdefault [] = Some (mktcfg (Some 30000) None true).
Proof. vm_compute. repeat split; reflexivity. Qed.
