(* BaseP.v -- facts about Model/Base.v and the few list idioms the codec, session and TLS files share. *)
From WT.Model Require Import Base.
From Coq Require Import Lia.

(* lo, lo + 1, ..., lo + n - 1, counted up by N.succ: enumerating with N.of_nat over [seq] costs
   the checker more than most properties evaluated on the result *)
Fixpoint upto (n : nat) (lo : N) : list N :=
  match n with O => [] | S k => lo :: upto k (N.succ lo) end.

Lemma forallb_from (P : N -> bool) n : forall lo,
  forallb P (upto n lo) = true -> forall x, lo <= x < lo + N.of_nat n -> P x = true.
Proof.
  induction n as [|n IH]; intros lo H x Hx; [lia|].
  cbn [upto forallb] in H. apply andb_prop in H as [H0 H].
  destruct (N.eq_dec x lo) as [->|Hne]; [exact H0|]. apply (IH _ H). lia.
Qed.

Lemma forallb_below (P : N -> bool) n :
  forallb P (upto n 0) = true -> forall x, x < N.of_nat n -> P x = true.
Proof. intros H x Hx. apply (forallb_from P n 0 H). lia. Qed.

Lemma opt_eqb_some (o : option N) b : opt_eqb N.eqb o (Some b) = true -> o = Some b.
Proof. destruct o as [x|]; [|discriminate]. intros H. apply N.eqb_eq in H. congruence. Qed.

(* the shape of the try_from constructors *)
Lemma checked_some (c : bool) (v n : N) : (if c then Some v else None) = Some n <-> n = v /\ c = true.
Proof.
  destruct c.
  - split; [intros [= <-]; auto|intros [-> _]; reflexivity].
  - split; [discriminate|intros [_ [=]]].
Qed.

Lemma firstn_app_exact {A} (a b : list A) n : length a = n -> firstn n (a ++ b) = a.
Proof. intros <-. rewrite firstn_app, Nat.sub_diag, firstn_all. apply app_nil_r. Qed.
Lemma skipn_app_exact {A} (a b : list A) n : length a = n -> skipn n (a ++ b) = b.
Proof. intros <-. rewrite skipn_app, Nat.sub_diag, skipn_all. reflexivity. Qed.

Lemma app_inv_tail_nil {A} {a b r : list A} : a ++ b ++ r = r -> b = [].
Proof.
  intros H. apply (f_equal (@length A)) in H. rewrite !app_length in H.
  destruct b; [reflexivity|cbn [length] in H; lia].
Qed.

Lemma len_app a b : len (a ++ b) = len a + len b.
Proof. unfold len. rewrite app_length. lia. Qed.

Lemma bytes_ok_cons b r : bytes_ok (b :: r) = byte_ok b && bytes_ok r.
Proof. reflexivity. Qed.
Lemma bytes_ok_cons_inv b r : bytes_ok (b :: r) = true -> b < 256 /\ bytes_ok r = true.
Proof. rewrite bytes_ok_cons, Bool.andb_true_iff. unfold byte_ok. rewrite N.ltb_lt. tauto. Qed.
Lemma bytes_ok_app a b : bytes_ok (a ++ b) = bytes_ok a && bytes_ok b.
Proof. apply forallb_app. Qed.
Lemma bytes_ok_forall d : bytes_ok d = true -> forall b, In b d -> b < 256.
Proof. intros H b Hb. apply N.ltb_lt. exact (proj1 (forallb_forall _ _) H b Hb). Qed.

Lemma list_eqb_eq a : forall b, list_eqb a b = true <-> a = b.
Proof.
  induction a as [|x a IH]; intros [|y b]; cbn [list_eqb]; try (split; congruence).
  rewrite Bool.andb_true_iff, N.eqb_eq, IH. split; [intros [-> ->]; reflexivity|intros [= -> ->]; auto].
Qed.
Lemma list_eqb_spec a b : reflect (a = b) (list_eqb a b).
Proof. apply iff_reflect. symmetry. apply list_eqb_eq. Qed.
Lemma list_eqb_refl a : list_eqb a a = true.
Proof. apply list_eqb_eq. reflexivity. Qed.
Lemma list_eqb_neq a b : a <> b -> list_eqb a b = false.
Proof. intros H. apply Bool.not_true_is_false. rewrite list_eqb_eq. exact H. Qed.

(* the capacity check shared by every BufferWriter path (put_varint, Frame / StreamHeader
   write_to_buffer, Datagram::write) *)
Theorem capped_write_spec (cap size : nat) (x : bytes) : length x = size ->
  let w := if (cap <? size)%nat then None else Some x in
  (w = None <-> (cap < size)%nat) /\ (forall y, w = Some y -> y = x /\ length y = size).
Proof.
  intros Hx. cbv zeta. destruct (Nat.ltb_spec cap size).
  - split; [tauto|discriminate].
  - split; [split; [discriminate|lia]|]. intros y [= <-]. auto.
Qed.
