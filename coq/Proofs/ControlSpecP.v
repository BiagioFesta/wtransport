(* ControlSpecP.v -- the control-stream runner refines the sequential rules of RFC 9114 (6.2.1, 7.2.4,
   7.2.8) for every sequence of frames.  The rules are a small automaton over abstract items, written
   from the specification (Spec/Spec9114.v gives the codes); the theorem relates it to Model/Runner.v's
   settings_run on the encoded bytes. *)
From WT.Model Require Import Base Ids Frame Async Wire Runner.
From WT.Spec Require Import Spec9114.
From WT.Proofs Require Import FrameP StreamTSP RunnerP SpecP.

(* what a peer can put on its control stream after the stream type *)
Inductive citem :=
| CSettings (payload : bytes)            (* a SETTINGS frame whose payload parses *)
| CGrease (id : N) (p : bytes)           (* a frame of a reserved (GREASE) type *)
| CUnknown (u : N) (p : bytes)           (* a frame of a type the endpoint does not know *)
| CData (p : bytes)
| CHeaders (p : bytes)
| CWt (sid : N).                         (* a WebTransport stream signal *)

Definition citem_ok (i : citem) : bool :=
  match i with
  | CSettings payload => (len payload <=? max_parse_payload) &&
                         match settings_with_frame payload with Val _ => true | _ => false end
  | CGrease id p => is_exercise id && (id <=? varint_max) && (len p <=? max_parse_payload)
  | CUnknown u p => match fkind_parse u with None => true | Some _ => false end
                    && (u <=? varint_max) && (len p <=? varint_max)
  | CData p | CHeaders p => len p <=? max_parse_payload
  | CWt sid => session_ok sid && (sid <=? varint_max)
  end.

Definition enc_citem (i : citem) : bytes :=
  match i with
  | CSettings payload => frame_write (mkframe KSettings payload None)
  | CGrease id p => frame_write (mkframe (KExercise id) p None)
  | CUnknown u p => unknown_frame u p
  | CData p => frame_write (mkframe KData p None)
  | CHeaders p => frame_write (mkframe KHeaders p None)
  | CWt sid => frame_write (mkframe KWebTransport [] (Some sid))
  end.
Fixpoint enc_citems (l : list citem) : bytes :=
  match l with [] => [] | i :: r => enc_citem i ++ enc_citems r end.

Inductive cverdict :=
| VClose (codes : list N)   (* connection error, one of these codes *)
| VOpen.                    (* nothing wrong so far and the stream is still open *)

(* seen = a SETTINGS frame has been received.  How the stream ends: Fin/Reset = the peer closed a
   critical stream; Lost = still open (nothing more arrived). *)
Fixpoint spec_control (seen : bool) (items : list citem) (t : term) : cverdict :=
  match items with
  | [] => match t with Lost => VOpen | _ => VClose critical_stream_closed end
  | CSettings _ :: r => if seen then VClose control_second_settings else spec_control true r t
  | CGrease _ _ :: r => if seen then spec_control seen r t else VClose control_first_not_settings
  | CUnknown _ _ :: r => spec_control seen r t          (* invisible: RFC 9114 9 (C13) *)
  | (CData _ | CHeaders _ | CWt _) :: _ =>
      if seen then VClose [H3_FRAME_UNEXPECTED] else VClose control_first_not_settings
  end.

Definition refines (v : cverdict) (r : reaction * option smap) : Prop :=
  match v with
  | VClose codes => exists e, fst r = RClose e /\ In (to_code e) codes
  | VOpen => fst r = RNotConnected
  end.

Definition is_some {A} (o : option A) : bool := match o with Some _ => true | None => false end.

Lemma refines_close codes e have : In (to_code e) codes -> refines (VClose codes) (RClose e, have).
Proof. intros H. exists e. auto. Qed.

(* DATA, HEADERS and WebTransport signals: refused by the typestate wherever they come *)
Lemma refines_unexpected have :
  refines (if is_some have then VClose [H3_FRAME_UNEXPECTED] else VClose control_first_not_settings)
          (RClose EFrameUnexpected, have).
Proof. destruct have; apply refines_close; [left; reflexivity|apply parse_errors_match]. Qed.

Theorem settings_run_refines_spec items : forall have fuel t,
  forallb citem_ok items = true -> (length items < fuel)%nat ->
  refines (spec_control (is_some have) items t) (settings_run fuel have (enc_citems items) t).
Proof.
  induction items as [|i r IH]; intros have [|f] t Hok Hf; try solve [inversion Hf].
  - rewrite settings_run_closed. destruct t; [apply refines_close, parse_errors_match..|reflexivity].
  - cbn [forallb] in Hok. apply andb_prop in Hok as [Hi Hr]. apply Nat.succ_lt_mono in Hf.
    cbn [enc_citems spec_control].
    destruct i as [payload|id p|u p|p|p|sid]; cbn [citem_ok enc_citem] in *.
    (* DATA and HEADERS are never allowed on the control stream *)
    4,5: (apply N.leb_le in Hi; rewrite settings_run_frame by (exact Hi || reflexivity); apply refines_unexpected).
    + (* SETTINGS: a second one is refused, the first is published *)
      apply andb_prop in Hi as [Hl Hp]. apply N.leb_le in Hl.
      rewrite settings_run_frame by (exact Hl || reflexivity). cbn [fk fpayload].
      destruct have as [m0|]; [apply refines_close, parse_errors_match|].
      destruct (settings_with_frame payload) as [m| | | |]; try discriminate.
      apply (IH (Some m)); assumption.
    + (* GREASE: ignored after SETTINGS, H3_MISSING_SETTINGS before *)
      apply andb_prop in Hi as [Hi Hl]. apply andb_prop in Hi as [Hx Hid]. apply N.leb_le in Hl, Hid.
      rewrite (settings_run_frame f have _ _ t (exercise_frame_wf id p Hx Hid) Hl). cbn [fk].
      destruct have; [apply IH; assumption|apply refines_close, parse_errors_match].
    + (* an unknown type is skipped by the frame reader: no fuel of the runner is used *)
      destruct (unknown_ok_inv u p Hi) as (Hk & Hu & Hp).
      rewrite (settings_run_unknown_frame _ _ _ _ _ _ Hk Hu Hp). apply IH; [exact Hr|apply Nat.lt_lt_succ_r, Hf].
    + (* a WebTransport stream signal *)
      apply andb_prop in Hi as [Hs Hm]. apply N.leb_le in Hm.
      rewrite (settings_run_frame f have _ _ t (wt_frame_wf sid Hs Hm)) by discriminate. apply refines_unexpected.
Qed.

Corollary control_stream_refines_spec items t :
  forallb citem_ok items = true ->
  refines (spec_control false items t) (settings_run (S (length items)) None (enc_citems items) t).
Proof. intros H. apply (settings_run_refines_spec items None); [exact H|apply Nat.lt_succ_diag_r]. Qed.

(* the items that may follow SETTINGS *)
Definition benign (i : citem) : bool := match i with CGrease _ _ | CUnknown _ _ => true | _ => false end.

Lemma spec_benign_open items : forallb benign items = true -> spec_control true items Lost = VOpen.
Proof.
  induction items as [|i r IH]; intros H; [reflexivity|].
  cbn [forallb] in H. apply andb_prop in H as [Hi Hr].
  destruct i; try discriminate; exact (IH Hr).
Qed.

Lemma spec_unknown_prefix pre items : forallb (fun i => match i with CUnknown _ _ => true | _ => false end) pre = true ->
  forall seen t, spec_control seen (pre ++ items) t = spec_control seen items t.
Proof.
  induction pre as [|i r IH]; intros H seen t; [reflexivity|].
  cbn [forallb] in H. apply andb_prop in H as [Hi Hr].
  destruct i; try discriminate. exact (IH Hr seen t).
Qed.

Theorem permitted_control_stream_accepted payload items :
  citem_ok (CSettings payload) = true -> forallb citem_ok items = true -> forallb benign items = true ->
  fst (settings_run (S (S (length items))) None (enc_citems (CSettings payload :: items)) Lost) = RNotConnected.
Proof.
  intros H1 H2 H3. pose proof (control_stream_refines_spec (CSettings payload :: items) Lost) as R.
  cbn [forallb spec_control] in R. rewrite H1, H2, (spec_benign_open items H3) in R. exact (R eq_refl).
Qed.
