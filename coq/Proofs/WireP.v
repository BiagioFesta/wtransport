(* WireP.v -- Model/Ids.v (the id bit tests as arithmetic, quarter stream ids, status codes) and
   Model/Wire.v (datagrams and the size contract, capsules, settings) *)
From WT.Model Require Import Base Varint Ids Frame Wire.
From WT.Proofs Require Import BaseP VarintP FrameP.
From Coq Require Import Lia ZifyBool ZifyN.

Lemma land1_mod x : N.land x 1 = x mod 2.
Proof. exact (N.land_ones x 1). Qed.

(* the mask sees the two low bits only; on those, all four values *)
Lemma land2_mod x : N.land x 2 = 2 * ((x / 2) mod 2).
Proof.
  assert (E : N.land x 2 = N.land (x mod 2 ^ 2) 2) by (rewrite <- N.land_ones, <- N.land_assoc; reflexivity).
  rewrite E. change (2 ^ 2) with 4. replace ((x / 2) mod 2) with (x mod 4 / 2) by lia.
  apply N.eqb_eq. generalize (N.mod_lt x 4 ltac:(discriminate)). generalize (x mod 4).
  apply (forallb_below (fun r => N.land r 2 =? 2 * (r / 2)) 4). reflexivity.
Qed.

Theorem is_client_initiated_spec x : is_client_initiated x = true <-> x mod 2 = 0.
Proof. unfold is_client_initiated. rewrite land1_mod. apply N.eqb_eq. Qed.

Theorem is_bidirectional_spec x : is_bidirectional x = true <-> (x / 2) mod 2 = 0.
Proof. unfold is_bidirectional. rewrite land2_mod, N.eqb_eq. lia. Qed.

Theorem is_local_spec x srv : is_local x srv = true <-> x mod 2 = (if srv then 1 else 0).
Proof. unfold is_local. rewrite land1_mod. apply N.eqb_eq. Qed.

Theorem session_ok_spec x : session_ok x = true <-> x mod 4 = 0.
Proof.
  unfold session_ok. rewrite Bool.andb_true_iff, is_bidirectional_spec, is_client_initiated_spec.
  (* the two low bits: x mod 4 = x mod 2 + 2 * ((x / 2) mod 2) *)
  change 4 with (2 * 2). rewrite N.mod_mul_r by discriminate. generalize (x mod 2), ((x / 2) mod 2). lia.
Qed.

Lemma q_from_session_div s : q_from_session s = s / 4.
Proof. exact (N.shiftr_div_pow2 s 2). Qed.
Lemma q_into_stream_mul q : q_into_stream q = q * 4.
Proof. exact (N.shiftl_mul_pow2 q 2). Qed.

Theorem q_roundtrip_session s : session_ok s = true -> q_into_stream (q_from_session s) = s.
Proof.
  rewrite session_ok_spec, q_from_session_div, q_into_stream_mul, N.mul_comm. intros H.
  symmetry. apply N.div_exact; [discriminate|exact H].
Qed.

Theorem q_roundtrip_q q : q_from_session (q_into_stream q) = q.
Proof. rewrite q_from_session_div, q_into_stream_mul. apply N.div_mul. discriminate. Qed.

Theorem q_into_stream_session q : session_ok (q_into_stream q) = true.
Proof. rewrite session_ok_spec, q_into_stream_mul. apply N.mod_mul. discriminate. Qed.

Theorem q_into_stream_range q : q <= qstream_max -> q_into_stream q <= varint_max.
Proof. unfold qstream_max, varint_max. rewrite q_into_stream_mul. lia. Qed.

Theorem q_from_session_range s : s <= varint_max -> q_from_session s <= qstream_max.
Proof. rewrite q_from_session_div. change qstream_max with (varint_max / 4). apply N.div_le_mono. discriminate. Qed.

Lemma q_try_from_varint_some v q : q_try_from_varint v = Some q <-> q = v /\ v <= qstream_max.
Proof. unfold q_try_from_varint. rewrite checked_some, N.leb_le. reflexivity. Qed.

Lemma status_try_from_some v n : status_try_from v = Some n <-> n = v /\ 100 <= v <= 599.
Proof.
  unfold status_try_from, status_in_range, status_min, status_max.
  rewrite checked_some, Bool.andb_true_iff, !N.leb_le. reflexivity.
Qed.

Theorem status_try_from_spec v : (exists n, status_try_from v = Some n) <-> 100 <= v <= 599.
Proof.
  split.
  - intros [n H]. apply status_try_from_some in H. apply H.
  - intros H. exists v. apply status_try_from_some. auto.
Qed.

Theorem status_from_str_range s n : status_from_str s = Some n -> 100 <= n <= 599.
Proof.
  unfold status_from_str. destruct (parse_u16 s) as [v|]; [|discriminate].
  rewrite status_try_from_some. intros [-> H]. exact H.
Qed.

Theorem status_show_parse n : 100 <= n <= 599 -> status_from_str (show_dec n) = Some n.
Proof.
  intros H. apply opt_eqb_some.
  apply (forallb_from (fun n => opt_eqb N.eqb (status_from_str (show_dec n)) (Some n)) 500 100); [|lia].
  vm_compute. reflexivity.
Qed.

Theorem status_is_successful_spec v : status_is_successful v = true <-> 200 <= v <= 299.
Proof. unfold status_is_successful. lia. Qed.

Theorem dgram_roundtrip q p : q <= qstream_max -> dgram_read (enc q ++ p) = Val (q, p).
Proof.
  intros H. unfold dgram_read.
  rewrite get_enc by (unfold qstream_max, varint_max in *; lia).
  rewrite (proj2 (q_try_from_varint_some q q)) by auto. reflexivity.
Qed.

Theorem dgram_read_some bs q p : dgram_read bs = Val (q, p) ->
  exists h, bs = h ++ p /\ h <> [] /\ q <= qstream_max.
Proof.
  unfold dgram_read. destruct (get_varint bs) as [[v r]|] eqn:E; [|discriminate].
  destruct (q_try_from_varint v) as [q'|] eqn:EQ; [|discriminate].
  intros [= <- <-]. apply q_try_from_varint_some in EQ as [-> Hr].
  destruct (get_varint_suffix E) as (h & -> & Hh). exists h. auto.
Qed.

Theorem drv_dgram_roundtrip sid p : session_ok sid = true -> sid <= varint_max ->
  drv_dgram_read (drv_dgram_write sid p) = Val (sid, vsize (q_from_session sid), p).
Proof.
  intros Hs Hm. unfold drv_dgram_read, drv_dgram_write.
  rewrite dgram_roundtrip by (apply q_from_session_range; exact Hm).
  rewrite (q_roundtrip_session _ Hs), app_length, enc_length, Nat.add_sub. reflexivity.
Qed.

(* Connection::max_datagram_size against quinn's refusal of a too large datagram: the same comparison *)
Theorem max_datagram_size_spec qm sid :
  match max_datagram_size (Some qm) sid with
  | None => forall L, send_too_large qm sid L = true
  | Some m => m + N.of_nat (vsize (q_from_session sid)) = qm /\
              forall L, send_too_large qm sid L = false <-> L <= m
  end.
Proof.
  unfold max_datagram_size, send_too_large. destruct (N.ltb_spec qm (N.of_nat (vsize (q_from_session sid)))) as [H|H].
  - intros L. apply N.ltb_lt. lia.
  - (* the header fits: the subtraction is exact *)
    split; [exact (N.sub_add _ _ H)|]. intros L. rewrite N.ltb_ge. lia.
Qed.

Theorem close_with_capsule_spec payload c r :
  close_with_capsule payload = Val (c, r) <->
  (4 <= len payload <= 1028 /\ c = unbe (firstn 4 payload) /\ r = skipn 4 payload /\ utf8_valid r = true).
Proof.
  unfold close_with_capsule.
  destruct ((len payload <? 4) || (1028 <? len payload)) eqn:E.
  - split; [discriminate|]. intros (H & _). lia.
  - destruct (utf8_valid (skipn 4 payload)) eqn:U.
    + split.
      * (* the bounds are E: neither length test fired *)
        intros [= <- <-]. split; [lia|]. split; [reflexivity|]. split; [reflexivity|exact U].
      * intros (_ & -> & -> & _). reflexivity.
    + split; [discriminate|]. intros (_ & _ & -> & H). congruence.
Qed.

Lemma close_with_capsule_malformed payload :
  (len payload < 4 \/ 1028 < len payload \/ utf8_valid (skipn 4 payload) = false) ->
  close_with_capsule payload = Err EDatagram.
Proof.
  unfold close_with_capsule. intros H.
  destruct ((len payload <? 4) || (1028 <? len payload)) eqn:E; [reflexivity|].
  destruct H as [H|[H|H]]; try lia. rewrite H. reflexivity.
Qed.

Lemma capsule_with_frame_close body trailing : len body <= varint_max ->
  capsule_with_frame (enc capsule_close_type ++ enc (len body) ++ body ++ trailing) = Some body.
Proof.
  intros Hb. unfold capsule_with_frame. rewrite get_enc by discriminate.
  rewrite N.eqb_refl, (get_enc _ _ Hb), get_bytes_n_app. reflexivity.
Qed.

(* the code comes back as the u32 its four bytes hold *)
Lemma close_capsule_roundtrip code reason trailing :
  len reason <= 1024 -> utf8_valid reason = true ->
  capsule_with_frame (close_capsule_bytes code reason ++ trailing) = Some (be 4 code ++ reason) /\
  close_with_capsule (be 4 code ++ reason) = Val (code mod 4294967296, reason).
Proof.
  intros Hl Hu.
  assert (HL : 4 + len reason = len (be 4 code ++ reason)).
  { rewrite len_app. unfold len at 2. rewrite be_length. reflexivity. }
  split.
  - unfold close_capsule_bytes. rewrite HL, <- !app_assoc, (app_assoc (be 4 code)).
    apply capsule_with_frame_close. rewrite <- HL. unfold varint_max. lia.
  - apply close_with_capsule_spec.
    rewrite (firstn_app_exact _ _ 4), (skipn_app_exact _ _ 4), unbe_be by apply be_length.
    rewrite <- HL. split; [lia|]. auto.
Qed.

(* settings: [sok] = an entry Settings::with_frame stores (known or GREASE id), [pair_ok] = an entry
   generate_frame can emit (id not reserved, both numbers varints) *)
Definition sok (p : N * N) : bool := match setting_parse (fst p) with SOk => true | _ => false end.
Definition pair_ok (p : N * N) : bool :=
  negb (setting_reserved (fst p)) && (fst p <=? varint_max) && (snd p <=? varint_max).

Lemma settings_payload_app a b : settings_payload (a ++ b) = settings_payload a ++ settings_payload b.
Proof. induction a as [|[k v] a IH]; [reflexivity|]. cbn [settings_payload app]. rewrite IH, !app_assoc. reflexivity. Qed.

Lemma smap_mem_app k a b : smap_mem k (a ++ b) = smap_mem k a || smap_mem k b.
Proof. induction a as [|[k' v] a IH]; [reflexivity|]. cbn [smap_mem app]. rewrite IH, Bool.orb_assoc. reflexivity. Qed.

(* keys of the entries that will be stored must not repeat *)
Fixpoint sok_nodup (seen : smap) (l : smap) : bool :=
  match l with
  | [] => true
  | p :: r => if sok p then negb (smap_mem (fst p) seen) && sok_nodup (seen ++ [p]) r
              else sok_nodup seen r
  end.

Lemma settings_parse_pair {f k v rest acc} : pair_ok (k, v) = true ->
  settings_parse (S f) (enc k ++ enc v ++ rest) acc =
  if sok (k, v) then (if smap_mem k acc then Err ESettings else settings_parse f rest (acc ++ [(k, v)]))
  else settings_parse f rest acc.
Proof.
  unfold pair_ok. cbn [fst snd]. rewrite !Bool.andb_true_iff, Bool.negb_true_iff, !N.leb_le. intros [[Hr Hk] Hv].
  cbn [settings_parse]. rewrite (get_enc _ _ Hk), (get_enc _ _ Hv). unfold sok, setting_parse. cbn [fst]. rewrite Hr.
  pose proof (enc_app_pos k (enc v ++ rest)) as L. destruct (enc k ++ enc v ++ rest); [inversion L|].
  destruct (is_exercise k); [reflexivity|]. destruct (setting_known k); reflexivity.
Qed.

Lemma settings_parse_all : forall l fuel acc,
  forallb pair_ok l = true -> sok_nodup acc l = true -> (length (settings_payload l) < fuel)%nat ->
  settings_parse fuel (settings_payload l) acc = Val (acc ++ filter sok l).
Proof.
  induction l as [|[k v] l IH]; intros fuel acc Hok Hnd Hf; (destruct fuel as [|fuel]; [inversion Hf|]).
  - cbn. rewrite app_nil_r. reflexivity.
  - cbn [forallb] in Hok. apply andb_prop in Hok as [Hp Hok].
    cbn [settings_payload sok_nodup filter] in *. rewrite (settings_parse_pair Hp).
    assert (Hf' : (length (settings_payload l) < fuel)%nat).
    { rewrite !app_length, enc_length in Hf. destruct (vsize_S k) as [n Hn]. lia. }
    destruct (sok (k, v)).
    + (* stored: the key is new by Hnd *)
      apply andb_prop in Hnd as [Hm Hnd]. apply Bool.negb_true_iff in Hm. cbn [fst] in Hm.
      rewrite Hm, (IH fuel _ Hok Hnd Hf'), <- app_assoc. reflexivity.
    + (* skipped *) apply (IH fuel _ Hok Hnd Hf').
Qed.

Theorem settings_roundtrip l :
  forallb pair_ok l = true -> sok_nodup [] l = true ->
  settings_with_frame (settings_payload l) = Val (filter sok l).
Proof. intros H1 H2. unfold settings_with_frame. apply (settings_parse_all l _ [] H1 H2). lia. Qed.

(* the entries with a known id: those that unknown and GREASE entries, wherever they stand, leave as they
   were written (C13_settings_unknown_transparent) *)
Definition is_known_setting (p : N * N) : bool := setting_known (fst p) && negb (setting_reserved (fst p)) && negb (is_exercise (fst p)).

Lemma filter_known_sok l : filter is_known_setting (filter sok l) = filter is_known_setting l.
Proof.
  induction l as [|p l IH]; [reflexivity|]. cbn [filter].
  destruct (sok p) eqn:E; cbn [filter]; rewrite IH; [reflexivity|].
  unfold is_known_setting, sok, setting_parse in *.
  destruct (setting_reserved (fst p)); [rewrite Bool.andb_false_r; reflexivity|].
  destruct (is_exercise (fst p)); [discriminate|].
  destruct (setting_known (fst p)); [discriminate|reflexivity].
Qed.

Lemma settings_parse_total fuel : forall bs acc, (length bs < fuel)%nat ->
  match settings_parse fuel bs acc with Val _ | Err _ => True | _ => False end.
Proof.
  induction fuel as [|fuel IH]; intros bs acc Hf; [inversion Hf|].
  cbn [settings_parse]. destruct bs as [|b bs']; [exact I|].
  destruct (get_varint (b :: bs')) as [[id r1]|] eqn:E1; [|exact I].
  destruct (get_varint r1) as [[v r2]|] eqn:E2; [|exact I].
  (* two varints were consumed, and a varint is not empty *)
  assert (L : (length r2 < fuel)%nat).
  { destruct (get_varint_suffix E1) as (p1 & Hp1 & _), (get_varint_suffix E2) as (p2 & -> & N2).
    rewrite Hp1, !app_length in Hf. destruct p2; [congruence|]. cbn [length] in Hf. lia. }
  destruct (setting_parse id); [exact I|apply IH, L|].
  destruct (smap_mem id acc); [exact I|apply IH, L].
Qed.
