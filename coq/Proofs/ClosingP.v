(* ClosingP.v -- C09: every pending or later accept call observes the end of the connection, whatever
   the other kind of stream is doing (backlog, parked tasks). *)
From WT.Model Require Import Base Closing Handoff.
From Coq Require Import Lia.

Theorem accept_err_iff k s :
  snd (accept k s) = AErr <->
  kchan (kof k s) = [] /\ worker_alive s = false /\ kparked (kof k s) = [] /\ kreading (kof k s) = [].
Proof.
  unfold accept, senders_alive. split.
  - destruct (kchan (kof k s)); [|discriminate]. destruct (worker_alive s); [discriminate|].
    destruct (kparked (kof k s)); [|discriminate]. destruct (kreading (kof k s)); [auto|discriminate].
  - intros (-> & -> & -> & ->). reflexivity.
Qed.

Lemma kof_with_k k s x : kof k (with_k k s x) = x.
Proof. destruct k; reflexivity. Qed.
Lemma worker_alive_with_k k s x : worker_alive (with_k k s x) = worker_alive s.
Proof. destruct k; reflexivity. Qed.

(* worker gone, no task reading: the conceptual queue is channel ++ parked; each accept returns its head
   (or the end when it is empty) and leaves its tail.  [quiet] is the premise as the statements of
   Props/C09.v have it, [ended] what the draining needs of it *)
Definition queue (k : kind) (s : cst) : list N := kchan (kof k s) ++ kparked (kof k s).
Definition quiet (cap : nat) (k : kind) (s : cst) : Prop :=
  worker_alive s = false /\ kreading (kof k s) = [] /\ (length (kchan (kof k s)) <= cap)%nat.
Definition ended (k : kind) (s : cst) : Prop := worker_alive s = false /\ kreading (kof k s) = [].

(* the third part: the accept that follows finds the head of the queue in the channel *)
Lemma task_send_ended cap k s : (1 <= cap)%nat -> ended k s ->
  ended k (task_send cap k s) /\ queue k (task_send cap k s) = queue k s /\
  (kchan (kof k (task_send cap k s)) = [] -> kparked (kof k (task_send cap k s)) = []).
Proof.
  intros Hcap (Hw & Hr). unfold ended, queue, task_send.
  destruct (kparked (kof k s)) as [|x p] eqn:Hp; [rewrite Hp; auto|].
  destruct (Nat.ltb_spec (length (kchan (kof k s))) cap) as [E|E].
  - (* room: x goes to the end of the channel, which is then not empty *)
    rewrite kof_with_k, worker_alive_with_k. cbn [kchan kparked kreading]. rewrite <- app_assoc.
    split; [auto|]. split; [reflexivity|]. destruct (kchan (kof k s)); discriminate.
  - (* no room: nothing moves, and a full channel is not empty since cap >= 1 *)
    rewrite Hp. split; [auto|]. split; [reflexivity|]. intros C. rewrite C in E. cbn [length] in E. lia.
Qed.

Lemma accept_ended k s : ended k s -> (kchan (kof k s) = [] -> kparked (kof k s) = []) ->
  match queue k s with
  | [] => snd (accept k s) = AErr
  | h :: t => snd (accept k s) = AItem h /\ ended k (fst (accept k s)) /\ queue k (fst (accept k s)) = t
  end.
Proof.
  intros (Hw & Hr) He. unfold queue. destruct (kchan (kof k s)) as [|y c] eqn:C.
  - rewrite (He eq_refl). apply accept_err_iff. auto.
  - unfold accept, ended. rewrite C. cbn [app fst snd]. rewrite kof_with_k, worker_alive_with_k. auto.
Qed.

Theorem drain_to_the_end cap k : (1 <= cap)%nat -> forall q s,
  ended k s -> queue k s = q -> drain_calls cap k (S (length q)) s = map AItem q ++ [AErr].
Proof.
  intros Hcap. induction q as [|h t IH]; intros s Hs Hq; cbn [length drain_calls].
  (* in both cases the first call is a send and an accept on the queue [q] *)
  all: destruct (task_send_ended cap k s Hcap Hs) as (Hs1 & E & He).
  all: pose proof (accept_ended k _ Hs1 He) as D; rewrite E, Hq in D.
  all: destruct (accept k (task_send cap k s)) as [s1 x]; cbn [fst snd] in D.
  - rewrite D. reflexivity.
  - destruct D as (-> & Hs2 & Hq2). cbn [map app]. f_equal. apply IH; assumption.
Qed.

(* the worker's end closes the transport: afterwards only parked tasks hold senders *)
Theorem worker_exit_state s :
  worker_alive (worker_exit s) = false /\ kreading (cuni (worker_exit s)) = [] /\ kreading (cbi (worker_exit s)) = [].
Proof. repeat split. Qed.

(* right after the worker's end, whatever the backlog; the bound on the channel is not needed *)
Corollary drain_after_worker_exit cap k s : (1 <= cap)%nat -> (length (kchan (kof k s)) <= cap)%nat ->
  drain_calls cap k (S (length (queue k (worker_exit s)))) (worker_exit s)
  = map AItem (queue k (worker_exit s)) ++ [AErr].
Proof.
  intros Hcap _. apply drain_to_the_end; [exact Hcap| |reflexivity]. destruct k; split; reflexivity.
Qed.

Example drain_example :
  drain_calls 4 KUni 7 (mkcst (mkkst [1; 2; 3; 4] [5; 6] []) (mkkst [] [] []) false)
  = [AItem 1; AItem 2; AItem 3; AItem 4; AItem 5; AItem 6; AErr].
Proof. vm_compute. reflexivity. Qed.

(* Closing and Handoff are two views of one system: per kind, the state of Closing.v is the projection
   (channel, tasks waiting for a slot, tasks reading their preamble) of the state of Handoff.v; its two
   moves are Handoff's TaskSend and AppRecv *)

Definition kst_of (s : hst) : kst := mkkst (chan s) (ready s) (waiting s).

Theorem task_send_is_handoff_step cap k c s id p :
  kof k c = kst_of s -> ready s = id :: p ->
  match step cap s (TaskSend id) with
  | Some s' => kof k (task_send cap k c) = kst_of s'
  | None => task_send cap k c = c
  end.
Proof.
  intros H R. unfold task_send. rewrite H. cbn [kst_of kparked kchan kreading step]. rewrite R.
  cbn [mem]. rewrite N.eqb_refl. cbn [orb andb].
  destruct (length (chan s) <? cap)%nat.
  - rewrite kof_with_k. unfold kst_of. cbn [chan ready waiting remove1]. rewrite N.eqb_refl. reflexivity.
  - reflexivity.
Qed.

Theorem accept_is_handoff_step cap k c s id r :
  kof k c = kst_of s -> chan s = id :: r ->
  snd (accept k c) = AItem id /\
  exists s', step cap s AppRecv = Some s' /\ kof k (fst (accept k c)) = kst_of s'.
Proof.
  intros H C. unfold accept. rewrite H. cbn [kst_of kchan kparked kreading]. rewrite C. cbn [fst snd].
  split; [reflexivity|]. cbn [step]. rewrite C. eexists. split; [reflexivity|].
  rewrite kof_with_k. reflexivity.
Qed.
